(* C14 — shared array data can be linked / sliced concurrently when built thread-safe.
   Models: generated/Gen_Globals.v (tie G: the micro-steps of Storage::add_link / remove_link and the declared type of
   n_links_ with and without ADEPT_STORAGE_THREAD_SAFE, regenerated on every run) and the reference-count machine of
   Conc.v: any number of threads, each an arbitrary sequence of link / unlink operations it is entitled to (it holds a
   view to copy or to destroy), under an arbitrary schedule of micro-steps.  Tie H: ./check C14 runs such workloads under
   ThreadSanitizer in a -DADEPT_STORAGE_THREAD_SAFE build (and through soft links in the default build) and checks
   n_storage_objects() after join.
   Modelled, not proved: std::atomic<int> read-modify-write is one indivisible step. *)
From Coq Require Import ZArith List Lia.
From Adept Require Import ListProofs Conc ConcProofs.
From AdeptGen Require Import Gen_Globals.
Import ListNotations.
Local Open Scope Z_scope.

(* what the source does: add_link is one atomic increment; remove_link checks for zero, then decrements atomically and
   decides on the VALUE RETURNED by that decrement; n_links_ is std::atomic in the thread-safe build *)
Theorem C14_protocol_steps : add_link_steps = ADD /\ remove_link_steps = REM /\ n_links_access_thread_safe = Atomic.
Proof. repeat split; reflexivity. Qed.
Print Assumptions C14_protocol_steps.

(* for EVERY number of threads, EVERY entitled program and EVERY interleaving of micro-steps: no step ever touches the
   Storage after it was deleted and no check fails; it is deleted at most once; it has been deleted exactly when no
   holder is left; until then the count equals the number of holders *)
Theorem C14_freed_exactly_once : forall l sched, Forall (fun t => 0 <= held t /\ pend t = []) l -> 0 < sum_held l ->
  let st := rrun add_link_steps remove_link_steps sched (rinit l) in
  bad st = 0 /\ (freed st = 0 \/ freed st = 1) /\ (freed st = 1 <-> sum_held (thrs st) = 0) /\ (freed st = 0 -> links st = sum_held (thrs st)).
Proof.
  intros l sched Hl Hs. change add_link_steps with ADD. change remove_link_steps with REM.
  assert (RInv (rinit l)) as Hi.
  { unfold RInv; cbn. repeat split; [lia|].
    eapply Forall_impl; [|exact Hl]. intros t [H0 Hp]. split; [exact H0|left; exact Hp]. }
  assert (RInv (rrun ADD REM sched (rinit l))) as (Hb & Hlk & Hf & Hok) by exact (fold_left_inv RInv _ rstep_inv sched _ Hi). cbn zeta.
  lia.
Qed.
Print Assumptions C14_freed_exactly_once.

(* soft links: a thread that only works through soft links performs no step on the count, in either build *)
Theorem C14_soft_links_touch_nothing : forall add rem l sched, Forall (fun t => prog t = [] /\ pend t = []) l -> rrun add rem sched (rinit l) = rinit l.
Proof.
  intros add rem l sched H. apply (fold_left_inv (fun st => st = rinit l)); [|reflexivity]. intros st k ->.
  (* thread k, or the idle thread that stands for "no such thread", has nothing to do *)
  assert (prog (nth k l dead_thr) = [] /\ pend (nth k l dead_thr) = []) as [E1 E2]
    by (destruct (nth_in_or_default k l dead_thr) as [Hin| ->]; [exact (proj1 (Forall_forall _ _) H _ Hin)|split; reflexivity]).
  unfold rstep. cbn [thrs rinit]. rewrite E2, E1. reflexivity.
Qed.
Print Assumptions C14_soft_links_touch_nothing.

(* non-vacuity: the owner and two workers; worker 1 copies and destroys, worker 2 destroys its view, the owner destroys last *)
Example C14_example :
  let l := [mkThr [LRemove] [] 1; mkThr [LAdd; LRemove; LRemove] [] 1; mkThr [LRemove] [] 1] in
  let st := rrun ADD REM [1; 2; 1; 2; 1; 0; 1; 1; 0]%nat (rinit l) in
  freed st = 1 /\ bad st = 0 /\ links st = 0 /\
  freed (rrun ADD REM [1; 2; 1; 2; 1; 0; 1; 1]%nat (rinit l)) = 0.
Proof. vm_compute. repeat split. Qed.
