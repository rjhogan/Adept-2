(* Proofs about the blocked Jacobian drivers (Jacobian.v): lane-wise correctness of the multi-lane
   kernels, and for each routine (serial/OpenMP, forward/reverse) that its list of writes is a
   permutation of the canonical list  { (i, j, i*dep_off + j*indep_off, J(i,j)) }  - every cell
   exactly once, with the entry obtained by a unit-vector tangent (resp. adjoint) pass. *)
From Coq Require Import List Lia Ring Bool ZArith Permutation.
From Adept Require Import ListProofs Scalar Tape TapeAdjoint Jacobian.
Import ListNotations.

(* The image of a rectangle of indices, row by row.  Every Jacobian driver emits, block after block, the grid of all rows
   over the block's columns; that is, up to order, the grid over the concatenated column ranges ([blocked_traversal]),
   which are all columns ([serial_tiling], [omp_tiling]); the reverse drivers do so for the transposed grid. *)
Definition grid {I J A} (f : I -> J -> A) (rows : list I) (cols : list J) : list A := flat_map (fun i => map (f i) cols) rows.

Lemma grid_nil_r {I J A} (f : I -> J -> A) rows : grid f rows [] = [].
Proof. induction rows as [|i rows IH]; [reflexivity|exact IH]. Qed.
Lemma grid_app_r {I J A} (f : I -> J -> A) rows c1 c2 : Permutation (grid f rows (c1 ++ c2)) (grid f rows c1 ++ grid f rows c2).
Proof. induction rows as [|i rows IH]; simpl; [reflexivity|]. rewrite IH, map_app, <- !app_assoc.
  apply Permutation_app_head, Permutation_app_swap_app. Qed.
Lemma blocked_traversal {I J A B} (f : I -> J -> A) rows (cols : B -> list J) bl :
  Permutation (flat_map (fun b => grid f rows (cols b)) bl) (grid f rows (flat_map cols bl)).
Proof. induction bl as [|b bl IH]; simpl; [rewrite grid_nil_r; reflexivity|]. rewrite grid_app_r, IH. reflexivity. Qed.
Lemma grid_transpose {I J A} (f : I -> J -> A) rows cols : Permutation (grid f rows cols) (grid (fun j i => f i j) cols rows).
Proof. induction rows as [|i rows IH]; simpl; [rewrite grid_nil_r; reflexivity|].
  change (i :: rows) with ([i] ++ rows). rewrite grid_app_r, IH. apply Permutation_app_tail.
  clear IH. induction cols as [|j cols IH]; simpl; [reflexivity|]. constructor. exact IH. Qed.
Lemma block_grid {I A} (F f : I -> nat -> A) rows i0 bs : (forall r i, i < bs -> F r i = f r (i0 + i)) ->
  flat_map (fun r => map (F r) (seq 0 bs)) rows = grid f rows (seq i0 bs).
Proof. intros H. apply flat_map_ext. intros r. rewrite <- (seq_offset i0 bs), map_map. apply map_ext_in. intros i Hi.
  apply in_seq in Hi. apply H. lia. Qed.
Lemma map_list_prod {I J A} (g : I * J -> A) rows cols : map g (list_prod rows cols) = grid (fun i j => g (i, j)) rows cols.
Proof. induction rows as [|i rows IH]; simpl; [reflexivity|]. rewrite map_app, map_map, IH. reflexivity. Qed.

Section JacP.
Context {T : Type} (O : Ops T).
Hypothesis Rth : ring_theory (o0 O) (o1 O) (oadd O) (omul O) (osub O) (oneg O) (@eq T).
Hypothesis eqb_true : forall a b, oeqb O a b = true -> a = b.
Notation zero := (o0 O).

(* the left side is the shape of every store of [fwd1m] and [rev1m]: into slot k of the lanes below nl *)
Lemma lane_store nl k (x : T) (g : mvec (T:=T)) i : i < nl -> forall j,
  (if (j =? k) && (i <? nl) then x else g j i) = upd (lane g i) k x j.
Proof. intros Hi j. apply Nat.ltb_lt in Hi. rewrite Hi, andb_true_r. reflexivity. Qed.

Lemma fwd1m_lane nl s g i : i < nl -> forall j, fwd1m O nl s g j i = fwd1 O s (lane g i) j.
Proof. intros Hi j. unfold fwd1m, fwd1. rewrite nth_map_seq0 by exact Hi. apply lane_store, Hi. Qed.
Lemma fwd1m_other nl s g i : nl <= i -> forall j, fwd1m O nl s g j i = g j i.
Proof. intros Hi j. unfold fwd1m. apply Nat.ltb_ge in Hi. rewrite Hi, andb_false_r. reflexivity. Qed.
Lemma fwdm_lane nl t : forall g i, i < nl -> forall j, fwdm O t nl g j i = fwd_sweep O t (lane g i) j.
Proof. induction t as [|s t IH]; intros g i Hi j; simpl; [reflexivity|].
  rewrite IH by exact Hi. apply (fwd_ext O). apply fwd1m_lane. exact Hi. Qed.

(* the multi-lane scatter of rev1m, with the adjoints of the lanes in [al] *)
Lemma scatterm_lane nl (al : list T) o i : i < nl -> forall (g : mvec (T:=T)) k,
  fold_left (fun (g' : mvec (T:=T)) mi =>
               let vals := map (fun i0 => oadd O (g' (snd mi) i0) (omul O (fst mi) (nth i0 al zero))) (seq 0 nl) in
               fun j0 i0 => if (j0 =? snd mi) && (i0 <? nl) then nth i0 vals zero else g' j0 i0) o g k i
  = scatter O (nth i al zero) o (lane g i) k.
Proof.
  intros Hi. induction o as [|mi o IH]; intros g k; [reflexivity|]. cbn [fold_left]. rewrite IH.
  rewrite (scatter_cons O). apply (scatter_ext O). unfold lane at 1. rewrite nth_map_seq0 by exact Hi. apply lane_store, Hi.
Qed.
Lemma rev1m_lane nl s g i : i < nl -> forall j, rev1m O nl s g j i = rev1 O s (lane g i) j.
Proof.
  intros Hi j. rewrite (rev1_shortcut O Rth eqb_true). unfold rev1_plain, rev1m.
  (* lane i of the buffer with slot [lhs s] zeroed, in the form [rev1m] has it *)
  rewrite <- (scatter_ext O _ _ _ _ (lane_store nl (lhs s) zero g i Hi)).
  destruct (existsb _ _) eqn:EA.
  - (* some lane is non-zero: every lane scatters *)
    rewrite scatterm_lane, nth_map_seq0 by exact Hi. reflexivity.
  - (* all lanes are zero: nothing is scattered, and scattering zero is the identity *)
    apply (existsb_nth _ _ zero (n := i)) in EA; [|rewrite map_length, seq_length; exact Hi].
    rewrite nth_map_seq0 in EA by exact Hi. apply negb_false_iff, eqb_true in EA.
    unfold lane at 1. rewrite EA, (scatter_zero O Rth). reflexivity.
Qed.
Lemma revm_lane nl t g i : i < nl -> forall j, revm O t nl g j i = rev_sweep O t (lane g i) j.
Proof. intros Hi. induction t as [|s t IH]; intros j; simpl; [reflexivity|].
  rewrite rev1m_lane by exact Hi. apply (rev1_ext O). exact IH. Qed.

Lemma seed_lane idx i0 bs i : i < bs -> forall j, lane (seed O idx i0 bs) i j = unit_vec O (nth (i0 + i) idx 0%nat) j.
Proof. intros Hi j. unfold lane, seed, unit_vec. apply Nat.ltb_lt in Hi. rewrite Hi. simpl. rewrite Nat.eqb_sym. reflexivity. Qed.

Variable t : tape (T:=T).
Variables indeps deps : list nat.
Notation n := (length indeps). Notation m := (length deps).

Definition addr (doff ioff : Z) (i j : nat) : Z := (Z.of_nat i * doff + Z.of_nat j * ioff)%Z.
Definition canon_wr (J : nat -> nat -> T) (doff ioff : Z) (ij : nat * nat) : wr (T:=T) :=
  mkWr (fst ij) (snd ij) (addr doff ioff (fst ij) (snd ij)) (J (fst ij) (snd ij)).
Definition cells : list (nat * nat) := list_prod (seq 0 m) (seq 0 n).
Definition canon (J : nat -> nat -> T) (doff ioff : Z) : list (wr (T:=T)) := map (canon_wr J doff ioff) cells.

Lemma cells_NoDup : NoDup cells.
Proof. apply NoDup_list_prod; apply seq_NoDup. Qed.
Lemma cells_In i j : In (i, j) cells <-> i < m /\ j < n.
Proof. unfold cells. rewrite in_prod_iff, !in_seq. lia. Qed.
Lemma canon_keys_NoDup (J : nat -> nat -> T) doff ioff : NoDup (map (fun w => (w_dep w, w_indep w)) (canon J doff ioff)).
Proof. unfold canon. rewrite map_map. simpl. rewrite (map_ext _ (fun x => x)) by (intros [a b]; reflexivity).
  rewrite map_id. apply cells_NoDup. Qed.

Lemma apply_writes_cons (w : wr (T:=T)) L mem :
  apply_writes (w :: L) mem = apply_writes L (fun a => if (a =? w_addr w)%Z then w_val w else mem a).
Proof. reflexivity. Qed.
Lemma apply_writes_notin (L : list (wr (T:=T))) : forall mem a, ~ In a (map w_addr L) -> apply_writes L mem a = mem a.
Proof. induction L as [|w L IH]; intros mem a H; [reflexivity|]. rewrite apply_writes_cons, IH by (intro; apply H; right; assumption).
  destruct (Z.eqb_spec a (w_addr w)) as [->|]; [exfalso; apply H; left; reflexivity|reflexivity]. Qed.
Lemma apply_writes_in (L : list (wr (T:=T))) : forall mem w, NoDup (map w_addr L) -> In w L ->
  apply_writes L mem (w_addr w) = w_val w.
Proof. induction L as [|w0 L IH]; intros mem w HND Hin; [contradiction|]. rewrite apply_writes_cons.
  inversion HND as [|? ? Hnot HND']. destruct Hin as [->|Hin].
  - rewrite apply_writes_notin, Z.eqb_refl by exact Hnot. reflexivity.
  - apply IH; assumption. Qed.
Theorem apply_writes_perm (L L' : list (wr (T:=T))) mem : Permutation L L' -> NoDup (map w_addr L) ->
  forall a, apply_writes L mem a = apply_writes L' mem a.
Proof.
  intros Hp HND a. destruct (in_dec Z.eq_dec a (map w_addr L)) as [Hin|Hnot].
  - apply in_map_iff in Hin. destruct Hin as (w & <- & Hw). rewrite (apply_writes_in L) by assumption.
    rewrite apply_writes_in; [reflexivity|rewrite <- Hp; exact HND|rewrite <- Hp; exact Hw].
  - rewrite (apply_writes_notin L) by exact Hnot. rewrite apply_writes_notin; [reflexivity|rewrite <- Hp; exact Hnot].
Qed.

Definition addr_injective (doff ioff : Z) : Prop :=
  forall i j i' j', i < m -> j < n -> i' < m -> j' < n -> addr doff ioff i j = addr doff ioff i' j' -> i = i' /\ j = j'.
Lemma canon_addr_NoDup J doff ioff L : Permutation L (canon J doff ioff) -> addr_injective doff ioff -> NoDup (map w_addr L).
Proof. intros Hp Hinj. rewrite Hp. unfold canon. rewrite map_map. apply NoDup_map_inj_on; [|apply cells_NoDup].
  intros [i j] [i' j'] H H' E. apply cells_In in H. apply cells_In in H'. destruct (Hinj i j i' j') as [-> ->]; tauto. Qed.

Notation Jf := (J_fwd O t indeps deps). Notation Jr := (J_rev O t indeps deps).
Lemma fwd_block_canon nl i0 bs doff ioff : bs <= nl ->
  fwd_block_writes deps (fwdm O t nl (seed O indeps i0 bs)) i0 bs doff ioff
  = grid (fun idep j => canon_wr Jf doff ioff (idep, j)) (seq 0 m) (seq i0 bs).
Proof.
  intros Hb. apply block_grid. intros idep i Hi.
  unfold canon_wr, J_fwd; cbn [fst snd]. rewrite fwdm_lane by lia. rewrite (fwd_ext O _ _ _ (seed_lane indeps i0 bs i Hi)).
  f_equal. unfold addr. rewrite Nat2Z.inj_add. destruct (Z.eqb_spec ioff 1) as [->|]; ring.
Qed.
Lemma rev_block_canon nl i0 bs doff ioff : bs <= nl ->
  rev_block_writes indeps (revm O t nl (seed O deps i0 bs)) i0 bs doff ioff
  = grid (fun iind i => canon_wr Jr doff ioff (i, iind)) (seq 0 n) (seq i0 bs).
Proof.
  intros Hb. apply block_grid. intros iind i Hi.
  unfold canon_wr, J_rev; cbn [fst snd]. rewrite revm_lane by lia. rewrite (rev_ext O _ _ _ (seed_lane deps i0 bs i Hi)).
  f_equal. unfold addr. rewrite Nat2Z.inj_add. destruct (Z.eqb_spec doff 1) as [->|]; ring.
Qed.

Variable M : nat.
Hypothesis Mpos : 1 <= M.

Lemma serial_tiling k : flat_map (fun b => seq (M * b) M) (seq 0 (k / M)) ++ seq (M * (k / M)) (k mod M) = seq 0 k.
Proof. rewrite (seq_blocks 0 M), <- seq_app, <- Nat.div_mod by lia. reflexivity. Qed.

Lemma omp_blocks_eq k : omp_blocks M k = k / M + (if 0 <? k mod M then 1 else 0).
Proof. unfold omp_blocks. pose proof (Nat.div_mod k M ltac:(lia)) as E. pose proof (Nat.mod_upper_bound k M ltac:(lia)).
  symmetry. destruct (Nat.ltb_spec 0 (k mod M)).
  - apply (Nat.div_unique _ _ _ (k mod M - 1)); lia.
  - apply (Nat.div_unique _ _ _ (M - 1)); lia. Qed.
Lemma omp_block_size_eq k b : omp_block_size M k b = if (b =? k / M) && (0 <? k mod M) then k mod M else M.
Proof. unfold omp_block_size. rewrite omp_blocks_eq. destruct (0 <? k mod M); [rewrite Nat.add_sub|rewrite !andb_false_r]; reflexivity. Qed.
Lemma omp_block_size_le k b : omp_block_size M k b <= M.
Proof. unfold omp_block_size. pose proof (Nat.mod_upper_bound k M ltac:(lia)). destruct (_ && _); lia. Qed.
Lemma omp_tiling k : flat_map (fun b => seq (M * b) (omp_block_size M k b)) (seq 0 (omp_blocks M k)) = seq 0 k.
Proof.
  rewrite <- (serial_tiling k), omp_blocks_eq, seq_app, flat_map_app. f_equal.
  - rewrite !flat_map_concat_map. f_equal. apply map_ext_in. intros b Hb. apply in_seq in Hb.
    rewrite omp_block_size_eq. destruct (Nat.eqb_spec b (k / M)); [lia|reflexivity].
  - destruct (0 <? k mod M) eqn:E; simpl.
    + rewrite app_nil_r, omp_block_size_eq, Nat.eqb_refl, E. reflexivity.
    + apply Nat.ltb_ge in E. replace (k mod M) with 0 by lia. reflexivity.
Qed.

Lemma serial_traversal {A} (f : nat -> nat -> A) rows k (full : nat -> list A) (last : list A) :
  (forall b, full b = grid f rows (seq (M * b) M)) -> last = grid f rows (seq (M * (k / M)) (k mod M)) ->
  Permutation (flat_map full (seq 0 (k / M)) ++ (if 0 <? k mod M then last else [])) (grid f rows (seq 0 k)).
Proof.
  intros Hfull ->. rewrite (flat_map_ext _ _ Hfull), blocked_traversal, <- (serial_tiling k), grid_app_r.
  destruct (Nat.ltb_spec 0 (k mod M)) as [Hpos|Hz]; [reflexivity|]. replace (k mod M) with 0 by lia. cbn [seq]. rewrite grid_nil_r. reflexivity.
Qed.
Lemma omp_traversal {A} (f : nat -> nat -> A) rows k (blk : nat -> list A) order :
  (forall b, blk b = grid f rows (seq (M * b) (omp_block_size M k b))) -> Permutation order (seq 0 (omp_blocks M k)) ->
  Permutation (flat_map blk order) (grid f rows (seq 0 k)).
Proof. intros Hblk ->. rewrite (flat_map_ext _ _ Hblk), blocked_traversal, omp_tiling. reflexivity. Qed.

Section Offsets.
Variables dep_off0 indep_off0 : Z.
Notation doff := (eff_dep_off indeps dep_off0). Notation ioff := (eff_indep_off deps indep_off0).

Theorem fwd_serial_perm : Permutation (jac_fwd_serial O M t indeps deps dep_off0 indep_off0) (canon Jf doff ioff).
Proof. unfold canon, cells. rewrite map_list_prod. apply serial_traversal; intros; apply fwd_block_canon; lia. Qed.
Theorem rev_serial_perm : Permutation (jac_rev_serial O M t indeps deps dep_off0 indep_off0) (canon Jr doff ioff).
Proof. unfold canon, cells. rewrite map_list_prod, grid_transpose. apply serial_traversal; intros; apply rev_block_canon; lia. Qed.
Theorem fwd_omp_perm order : Permutation order (seq 0 (omp_blocks M n)) ->
  Permutation (jac_fwd_omp O M t indeps deps order dep_off0 indep_off0) (canon Jf doff ioff).
Proof. unfold canon, cells. rewrite map_list_prod. apply omp_traversal. intros. apply fwd_block_canon, omp_block_size_le. Qed.
Theorem rev_omp_perm order : Permutation order (seq 0 (omp_blocks M m)) ->
  Permutation (jac_rev_omp O M t indeps deps order dep_off0 indep_off0) (canon Jr doff ioff).
Proof. unfold canon, cells. rewrite map_list_prod, grid_transpose. apply omp_traversal. intros. apply rev_block_canon. lia. Qed.
End Offsets.

Variable ngrad : nat.
Hypothesis t_wf : Forall (wf_stmt ngrad) t.
Hypothesis indeps_wf : Forall (fun k => k < ngrad) indeps.
Hypothesis deps_wf : Forall (fun k => k < ngrad) deps.

Theorem J_rev_eq_J_fwd i j : i < m -> j < n -> Jr i j = Jf i j.
Proof. intros Hi Hj. apply (reverse_entry_eq_forward_entry O Rth eqb_true ngrad t _ _ t_wf); apply Forall_nth; assumption. Qed.
Lemma canon_rev_eq_fwd doff ioff : canon Jr doff ioff = canon Jf doff ioff.
Proof. unfold canon. apply map_ext_in. intros [i j] Hij. apply cells_In in Hij. unfold canon_wr; simpl.
  rewrite J_rev_eq_J_fwd by tauto. reflexivity. Qed.
End JacP.
Arguments rev_serial_perm {T} O Rth eqb_true {t indeps deps M} Mpos {dep_off0 indep_off0}.
Arguments fwd_omp_perm {T} O {t indeps deps M} Mpos {dep_off0 indep_off0 order} _.
Arguments rev_omp_perm {T} O Rth eqb_true {t indeps deps M} Mpos {dep_off0 indep_off0 order} _.
Arguments canon_addr_NoDup {T indeps deps J doff ioff L} _ _.
Arguments canon_rev_eq_fwd {T} O Rth eqb_true {t indeps deps ngrad} _ _ _ doff ioff.

(* s spans the whole range k * t of the smaller stride: one step of a moves the address by s, all of b's range together by less *)
Lemma strided_inj (k s t a b a' b' : Z) : (1 <= t -> k * t <= s -> 0 <= b < k -> 0 <= b' < k ->
  a * s + b * t = a' * s + b' * t -> a = a' /\ b = b')%Z.
Proof. intros Ht Hs Hb Hb' E. destruct (radix_inj s a (b * t) a' (b' * t)) as [-> Eb]; [nia|nia|exact E|]. split; [reflexivity|nia]. Qed.

Section Layout.
Variables indeps deps : list nat.
Lemma addr_inj_strided_rows doff ioff : (1 <= ioff)%Z -> (Z.of_nat (length indeps) * ioff <= doff)%Z -> addr_injective indeps deps doff ioff.
Proof. intros H1 H2 i j i' j' Hi Hj Hi' Hj' E. unfold addr in E.
  destruct (strided_inj (Z.of_nat (length indeps)) doff ioff (Z.of_nat i) (Z.of_nat j) (Z.of_nat i') (Z.of_nat j')); lia. Qed.
Lemma addr_inj_strided_cols doff ioff : (1 <= doff)%Z -> (Z.of_nat (length deps) * doff <= ioff)%Z -> addr_injective indeps deps doff ioff.
Proof. intros H1 H2 i j i' j' Hi Hj Hi' Hj' E. unfold addr in E.
  destruct (strided_inj (Z.of_nat (length deps)) ioff doff (Z.of_nat j) (Z.of_nat i) (Z.of_nat j') (Z.of_nat i')); lia. Qed.
Lemma addr_inj_colmajor : addr_injective indeps deps 1 (Z.of_nat (length deps)).
Proof. apply addr_inj_strided_cols; lia. Qed.
Lemma addr_inj_rowmajor : addr_injective indeps deps (Z.of_nat (length indeps)) 1.
Proof. apply addr_inj_strided_rows; lia. Qed.
End Layout.
