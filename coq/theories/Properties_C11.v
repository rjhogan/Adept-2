(* C11 — misuse is reported by the documented exception, never by memory corruption.
   Model: Protocol.v (the recording life cycle with the allocated length of the gradient list, the initialised length
   used by the range checks, and the extension before a sweep; tie H: ./check C11 runs misuse-heavy protocol
   histories on an AddressSanitizer build of the real Stack against the extracted model, exception kinds included).
   _partial: the array-side misuse classes (size_mismatch, inner_dimension_mismatch, empty_array, invalid_dimension,
   invalid_operation, index_out_of_bounds on over-filling) and stack_already_active are not in this model; for them
   the check commits each misuse under AddressSanitizer/UBSan, verifies the exception type and the follow-up work. *)
From Coq Require Import List ZArith Lia.
From Adept Require Import Scalar Tape Protocol ProtocolProofs StackDefs StackProofs ProtocolStack.
Import ListNotations.

Section AnyRing.
Context {T : Type} (O : Ops T).

(* in EVERY history - protocol-respecting or not - no store or sweep reaches beyond the allocated gradient list *)
Theorem C11_no_out_of_bounds_partial : forall ops, oob (prun O ops (pinit O)) = 0.
Proof using Type. apply (reachable_cap_inv O). Qed.

(* the documented kinds: passes and reads before any seed -> gradients_not_initialized; seeding or reading an index at
   or beyond the initialised length -> gradient_out_of_range; append on a different variable -> wrong_gradient *)
Theorem C11_kinds_partial : forall st : pstate (T:=T),
  (init st = false -> pstep O st OForward = add_err st ENotInit /\ pstep O st OReverse = add_err st ENotInit /\ forall i, obs_gradient_error st i = Some ENotInit) /\
  (init st = true -> forall i x, ninit st <= i -> pstep O st (OSeed i x) = add_err st ERange /\ obs_gradient_error st i = Some ERange) /\
  (recording st = true -> forall l ops, forallb (fun mi => Nat.ltb (snd mi) (ngrad st)) ops = true -> append_last (tp st) l (drop_zeros O ops) = None ->
     pstep O st (OAppendDep l ops) = add_err st EWrongGradient).
Proof using Type.
  intros st. split; [|split].
  - intros H. cbn [pstep]. unfold obs_gradient_error. rewrite H. repeat split.
  - intros H i x Hi. cbn [pstep]. unfold obs_gradient_error. rewrite H.
    destruct (Nat.ltb_spec i (ninit st)); [lia|split; reflexivity].
  - intros H l ops H0 H1. cbn [pstep]. rewrite H, H0, H1. reflexivity.
Qed.

(* after the exception: tape, gradients, lists and flags are untouched, the invariants hold, so the replay theorem of
   C10 applies to the state as it stands *)
Theorem C11_recoverable_partial : forall (st : pstate (T:=T)) k,
  tp (add_err st k) = tp st /\ buf (add_err st k) = buf st /\ init (add_err st k) = init st /\ ngrad (add_err st k) = ngrad st /\
  ninit (add_err st k) = ninit st /\ indep (add_err st k) = indep st /\ dep (add_err st k) = dep st /\ recording (add_err st k) = recording st /\
  (PInv st -> PInv (add_err st k)).
Proof using Type. repeat split. intros H. exact H. Qed.
Theorem C11_invariants_survive_partial : forall ops, PInv (prun O ops (pinit O)) /\ NInv (prun O ops (pinit O)).
Proof using Type. split; [apply (prun_preserves O _ (pstep_inv O)); constructor|apply (prun_preserves O _ (pstep_ninv O)); discriminate]. Qed.

(* tie G: the gradient-list bookkeeping of adept::Stack TRANSLATED on every run from Stack.cpp / Stack.h (initialize_gradients,
   extend_gradients, set_gradients, get_gradients, compute_adjoint / compute_tangent_linear, clear_gradients, new_recording).
   In every state the model can reach, executing the translated code on the model's counters gives the model's next
   counters and the model's exception kind, and never touches the gradient buffer beyond its TRUE length (b_oob), for
   set_gradient / get_gradient of any object index, both sweeps and clear_gradients (new_recording: [new_recording_matches]
   in ProtocolStack.v) *)
Theorem C11_generated_stack_bookkeeping : forall ops ig i x,
  let st := prun O ops (pinit O) in
  (let r := do_set (Z.of_nat i) (Z.of_nat i + 1) (proj ig st) in
   same_counters (pstep O st (OSeed i x)) r /\ b_oob r = false /\
   match b_err r with None => errs (pstep O st (OSeed i x)) = errs st | Some e => errs (pstep O st (OSeed i x)) = kind_of e :: errs st end) /\
  (let r := do_get (Z.of_nat i) (Z.of_nat i + 1) (proj ig st) in b_oob r = false /\ option_map kind_of (b_err r) = obs_gradient_error st i) /\
  (let r := do_adjoint (proj ig st) in
   b_oob r = false /\ b_oob (do_tangent (proj ig st)) = false /\
   match b_err r with
   | None => init st = true /\ same_counters (pstep O st OReverse) r /\ same_counters (pstep O st OForward) r /\
             errs (pstep O st OReverse) = errs st /\ errs (pstep O st OForward) = errs st
   | Some e => init st = false /\ errs (pstep O st OReverse) = kind_of e :: errs st /\ errs (pstep O st OForward) = kind_of e :: errs st
   end) /\
  same_counters (pstep O st OClearGradients) (do_clear_gradients (proj ig st)).
Proof using Type. intros ops ig i x. exact (stack_bookkeeping O ig _ i x (proj2 (reachable_cap_inv O ops))). Qed.
End AnyRing.
Print Assumptions C11_generated_stack_bookkeeping.
Print Assumptions C11_no_out_of_bounds_partial.
Print Assumptions C11_kinds_partial.
Print Assumptions C11_recoverable_partial.
Print Assumptions C11_invariants_survive_partial.

(* non-vacuity: seed, create two objects, seed the second of them: gradient_out_of_range, and the sweep still works *)
Example C11_example :
  let h : list (pop (T:=Z)) := [ORegister 2; ONewRecording 2; OAddDep 1%nat [(3%Z, 0%nat)]; OSeed 1%nat 1%Z; ORegister 4; ORecord (mkStmt 3%nat []); OSeed 3%nat 1%Z; OReverse] in
  let st := prun ZOps h (pinit ZOps) in
  errs st = [ERange] /\ obs_gradient st 0 = Some 3%Z /\ oob st = 0%nat /\ obs_gradient_error st 3 = Some ERange.
Proof. vm_compute. repeat split. Qed.
