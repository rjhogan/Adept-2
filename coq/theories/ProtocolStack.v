(* The model Protocol.v (C10 / C11) updates its counters and raises its exception kinds exactly as the bookkeeping code
   translated from Stack.cpp / Stack.h does (Gen_Stack.v, executed by StackDefs.v), operation by operation. *)
From Coq Require Import ZArith List Lia.
From Adept Require Import Scalar Protocol ProtocolProofs StackDefs StackProofs.
Import ListNotations.

Section Link.
Context {T : Type} (O : Ops T).
Local Open Scope Z_scope.
Definition proj (ig : Z) (st : pstate (T:=T)) : bk :=
  mkBk (Z.of_nat (ngrad st)) (Z.of_nat (nalloc st)) (Z.of_nat (ninit st)) ig (init st) (Z.of_nat (nalloc st)) (0 <? Z.of_nat (nalloc st)) None None false [].
Definition same_counters (st : pstate (T:=T)) (b : bk) : Prop :=
  b_max b = Z.of_nat (ngrad st) /\ b_alloc b = Z.of_nat (nalloc st) /\ b_init b = Z.of_nat (ninit st) /\ b_flag b = init st.
Definition kind_of (x : sexc) : ekind := match x with XNotInit => ENotInit | XRange => ERange end.
Definition cap (st : pstate (T:=T)) : Prop := init st = true -> (ninit st <= nalloc st)%nat.

Lemma good_proj ig st : cap st -> good (proj ig st).
Proof.
  intros Hc. unfold good, proj. cbn [b_len b_alloc b_max b_init b_flag b_err b_tmp b_oob b_have].
  repeat split; try lia. intros H. specialize (Hc H). lia.
Qed.

(* the range test of set_gradient / get_gradient on the one-element range [i, i+1), in the model's terms *)
Lemma range_test i k : (Z.of_nat k <? Z.of_nat i + 1) = negb (Nat.ltb i k).
Proof. destruct (Nat.ltb_spec i k); [apply Z.ltb_ge|apply Z.ltb_lt]; lia. Qed.

(* the four conjuncts: set_gradient and get_gradient of the object with index i, the two sweeps, clear_gradients *)
Theorem stack_bookkeeping ig st i x : cap st ->
  (let r := do_set (Z.of_nat i) (Z.of_nat i + 1) (proj ig st) in
   same_counters (pstep O st (OSeed i x)) r /\ b_oob r = false /\
   match b_err r with None => errs (pstep O st (OSeed i x)) = errs st | Some e => errs (pstep O st (OSeed i x)) = kind_of e :: errs st end) /\
  (let r := do_get (Z.of_nat i) (Z.of_nat i + 1) (proj ig st) in b_oob r = false /\ option_map kind_of (b_err r) = obs_gradient_error st i) /\
  (let r := do_adjoint (proj ig st) in
   b_oob r = false /\ b_oob (do_tangent (proj ig st)) = false /\
   match b_err r with
   | None => init st = true /\ same_counters (pstep O st OReverse) r /\ same_counters (pstep O st OForward) r /\
             errs (pstep O st OReverse) = errs st /\ errs (pstep O st OForward) = errs st
   | Some e => init st = false /\ errs (pstep O st OReverse) = kind_of e :: errs st /\ errs (pstep O st OForward) = kind_of e :: errs st
   end) /\
  same_counters (pstep O st OClearGradients) (do_clear_gradients (proj ig st)).
Proof.
  intros Hc. pose proof (good_proj ig st Hc) as Hg. split; [|split; [|split]].
  - destruct (set_gradients_spec (proj ig st) (Z.of_nat i) (Z.of_nat i + 1) Hg ltac:(lia)) as (Ho & _ & Fl & Ei & Ea & Em & Ee & _).
    unfold same_counters. rewrite (pstep_fields O), Em, Ea, Ei, Fl, Ee, Ho. cbn [pfields ngrad nalloc ninit init errs].
    cbn [proj b_flag b_max]. destruct (init st).
    + cbn [proj b_alloc b_init]. rewrite range_test. destruct (Nat.ltb i (ninit st)); repeat split.
    + (* the call initialises first: [initialize_spec] gives the counters of the model's [initialize] *)
      destruct (initialize_spec (proj ig st) Hg) as (_ & _ & I & _ & _ & A & _).
      cbn [initialize ninit nalloc]. rewrite I, A. cbn [proj b_max b_alloc]. rewrite range_test, Nat2Z.inj_max.
      destruct (Nat.ltb i (ngrad st)); repeat split.
  - destruct (get_gradients_spec (proj ig st) (Z.of_nat i) (Z.of_nat i + 1) Hg ltac:(lia)) as (Ho & _ & _ & _ & _ & _ & Ee).
    split; [exact Ho|]. rewrite Ee. cbn [proj b_flag b_init]. unfold obs_gradient_error.
    destruct (init st); cbn [negb]; [|reflexivity]. rewrite range_test. destruct (Nat.ltb i (ninit st)); reflexivity.
  - destruct (sweeps_spec (proj ig st) Hg) as (Ho & Ho' & Ee & _ & Hs).
    split; [exact Ho|]. split; [exact Ho'|]. rewrite Ee. unfold same_counters.
    rewrite !(pstep_fields O). cbn [pfields ngrad nalloc ninit init errs]. cbn [proj b_flag] in *.
    destruct (init st); [|repeat split].
    destruct (Hs eq_refl) as (_ & _ & Hi & Hm & _ & Ha & Ef).
    rewrite Nat2Z.inj_max. repeat split; assumption.
  - destruct (clear_gradients_spec (proj ig st) Hg) as (_ & F & M & I & A).
    unfold same_counters. rewrite (pstep_fields O). repeat split; assumption.
Qed.

Theorem new_recording_matches ig st : cap st -> 0 <= ig + 1 ->
  let r := do_new_recording (proj ig st) in
  b_flag r = init (pstep O st (ONewRecording (Z.to_nat ig))) /\ b_max r = Z.of_nat (ngrad (pstep O st (ONewRecording (Z.to_nat ig)))) \/ ig < 0.
Proof.
  intros Hc Hp. destruct (Z.ltb_spec ig 0) as [Hn|Hn]; [right; exact Hn|left].
  destruct (new_recording_spec (proj ig st) (good_proj ig st Hc) Hp) as (_ & F & M & _).
  cbn [pstep ngrad init]. split; [exact F|]. rewrite M. cbn [proj b_igrad]. lia.
Qed.
End Link.
