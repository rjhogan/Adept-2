(* C04: array statements have element-wise value semantics despite aliasing: the assignment loop with
   the alias test of Array::operator= computes "evaluate the whole right-hand side, then store". *)
From Coq Require Import ZArith List Bool Lia ZifyBool.
From Adept Require Import ListProofs View ViewProofs Assign.
Import ListNotations.
Local Open Scope Z_scope.

(* [range_go] and [lin] both stop at the shorter of the extents and the strides: nothing is asked of their lengths *)
Lemma range_go_bounds : forall ds ss idx lo hi a, inb ds idx -> lo <= a <= hi ->
  let '(l, h) := range_go ds ss lo hi in l <= a + lin idx ss <= h.
Proof.
  induction ds as [|d ds IH]; intros ss [|i idx] lo hi a Hi Ha; try contradiction.
  - simpl. lia.
  - destruct ss as [|s ss]; [simpl; lia|]. destruct Hi as [Hi Hi']. cbn [range_go lin].
    (* a + i * s stays inside the bounds, one of which has moved by (d - 1) * s in the direction of s *)
    rewrite Z.add_assoc. destruct (Z.leb_spec 0 s); (apply IH; [exact Hi'|nia]).
Qed.
Lemma data_range_bounds v idx : inb (dims v) idx -> let '(l, h) := data_range v in l <= addr v idx <= h.
Proof. intros Hi. unfold data_range, addr. apply range_go_bounds; [exact Hi|lia]. Qed.
Theorem footprint v idx : wfv v -> inb (dims v) idx -> let '(l, h) := data_range v in l <= addr v idx <= h.
Proof. intros _. apply data_range_bounds. Qed.

Fixpoint insert_at {A} (k : nat) (x : A) (l : list A) : list A :=
  match k, l with O, _ => x :: l | S k', h :: t => h :: insert_at k' x t | S _, [] => [x] end.
(* what the dimension check of operator= accepts *)
Inductive shape : aexp -> list Z -> Prop :=
| ShLeaf v ds : wfv (vw v) -> dims (vw v) = ds -> shape (ELeaf v) ds
| ShScalar c ds : shape (EScalar c) ds
| ShNeg e ds : shape e ds -> shape (ENeg e) ds
| ShBin o a b ds : shape a ds -> shape b ds -> shape (EBin o a b) ds
| ShNoAlias e ds : shape e ds -> shape (ENoAlias e) ds
| ShSpread d e ds n : shape e ds -> (d <= length ds)%nat -> shape (ESpread d e) (insert_at d n ds)
| ShOuter a b n1 n2 : shape a [n1] -> shape b [n2] -> shape (EOuter a b) [n1; n2].
Fixpoint no_noalias (e : aexp) : bool :=
  match e with
  | ENoAlias _ => false
  | ENeg a | ESpread _ a => no_noalias a
  | EBin _ a b | EOuter a b => no_noalias a && no_noalias b
  | _ => true
  end.

Lemma inb_remove_insert : forall d (ds : list Z) n idx, (d <= length ds)%nat -> inb (insert_at d n ds) idx -> inb ds (remove_at d idx).
Proof.
  induction d as [|d IH]; intros ds n idx Hd Hi.
  - destruct idx as [|i idx]; [contradiction|]. simpl in *. tauto.
  - destruct ds as [|h t]; [simpl in Hd; lia|]. simpl in Hi. destruct idx as [|i idx]; [contradiction|]. simpl in *.
    destruct Hi as [Hi Hi']. split; [exact Hi|]. apply (IH t n); [lia|exact Hi'].
Qed.

Definition agree_outside (p : nat) (lo hi : Z) (m m' : mem) : Prop :=
  forall p' a, (p' = p /\ lo <= a <= hi) \/ m p' a = m' p' a.

Theorem not_aliased_independent e ds : shape e ds -> forall p lo hi, no_noalias e = true -> is_aliased e p lo hi = false ->
  forall m m', agree_outside p lo hi m m' -> forall idx, inb ds idx -> eval e m idx = eval e m' idx.
Proof.
  intros Hs p lo hi Hn Hal m m' Hag. revert Hn Hal.
  induction Hs as [v ds Hw Hd|c ds|e ds Hs IH|o a b ds Ha IHa Hb IHb|e ds Hs IH|d e ds n Hs IH Hdl|a b n1 n2 Ha IHa Hb IHb];
    cbn [eval no_noalias is_aliased]; intros Hn Hal idx Hi.
  - subst ds. pose proof (data_range_bounds (vw v) idx Hi) as Hf. destruct (data_range (vw v)) as [b t].
    (* same parent, and the address lies in both ranges: the test would have fired *)
    destruct (Hag (par v) (addr (vw v) idx)) as [[Hp Hr]|E]; [lia|exact E].
  - reflexivity.
  - f_equal. apply IH; assumption.
  - apply andb_true_iff in Hn. destruct Hn. apply orb_false_iff in Hal. destruct Hal. f_equal; [apply IHa|apply IHb]; assumption.
  - discriminate.
  - apply IH; try assumption. eapply inb_remove_insert; eassumption.
  - apply andb_true_iff in Hn. destruct Hn. apply orb_false_iff in Hal. destruct Hal.
    revert idx Hi. refine (inb2_all _ _ _ _). intros i j Hi Hj. f_equal; [apply IHa|apply IHb]; simpl; auto.
Qed.

Lemma indices_inb : forall ds, Forall (inb ds) (indices ds).
Proof.
  induction ds as [|d ds IH]; simpl; [repeat constructor|]. apply Forall_flat_map, Forall_forall. intros i Hi. apply in_seq in Hi.
  apply Forall_map. refine (Forall_impl _ _ IH). intros t Ht. split; [lia|exact Ht].
Qed.
Lemma indices_NoDup : forall ds, NoDup (indices ds).
Proof.
  induction ds as [|d ds IH]; simpl; [repeat constructor; intros []|]. generalize 0%nat.
  induction (Z.to_nat d) as [|n IHn]; intros s0; simpl; [constructor|]. apply NoDup_app_intro; [| apply IHn|].
  - apply FinFun.Injective_map_NoDup; [intros a b E; congruence|exact IH].
  - intros x Hx Hy. apply in_map_iff in Hx. destruct Hx as (t0 & <- & _). apply in_flat_map in Hy.
    destruct Hy as (k & Hk & Hy). apply in_map_iff in Hy. destruct Hy as (t1 & E & _). apply in_seq in Hk. inversion E. lia.
Qed.

Lemma upd_agree p lo hi m m' a x : lo <= a <= hi -> agree_outside p lo hi m m' -> agree_outside p lo hi m (upd m' p a x).
Proof. intros Ha H p' a'. unfold upd. destruct (Nat.eqb p' p && (a' =? a)) eqn:E; [left; lia|apply H]. Qed.
Lemma agree_refl p lo hi m : agree_outside p lo hi m m.
Proof. intros p' a. right. reflexivity. Qed.

(* the shape the two proofs about [assign_loop] share: evaluating element by element in place is "store f i at every i" as soon
   as some invariant P of (indices still to come, current memory) makes the element about to be written evaluate to f i *)
Lemma assign_loop_inv t e (f : list Z -> Z) (P : list (list Z) -> mem -> Prop) :
  (forall i todo m, P (i :: todo) m -> eval e m i = f i /\ P todo (upd m (par t) (addr (vw t) i) (f i))) ->
  forall idxs m, P idxs m -> assign_loop t e idxs m = store_list t idxs (map f idxs) m.
Proof.
  intros Hstep. induction idxs as [|i idxs IH]; intros m HP; [reflexivity|].
  cbn [assign_loop map store_list]. destruct (Hstep i idxs m HP) as [-> HP']. apply IH, HP'.
Qed.

Definition covers (t : pview) (lo hi : Z) : Prop := forall i, inb (dims (vw t)) i -> lo <= addr (vw t) i <= hi.
Lemma data_range_covers t lo hi : data_range (vw t) = (lo, hi) -> covers t lo hi.
Proof. intros Er i Hi. pose proof (data_range_bounds (vw t) i Hi) as Hf. rewrite Er in Hf. exact Hf. Qed.

(* what a negative alias test gives (unaliased_blind), and all the loops need of e *)
Definition blind (e : aexp) (t : pview) (lo hi : Z) (m : mem) : Prop :=
  forall m' i, agree_outside (par t) lo hi m m' -> inb (dims (vw t)) i -> eval e m' i = eval e m i.
Lemma unaliased_blind e t lo hi m : shape e (dims (vw t)) -> no_noalias e = true -> is_aliased e (par t) lo hi = false ->
  blind e t lo hi m.
Proof. intros Hs Hn Ha m' i Hag Hi. symmetry. eapply not_aliased_independent; eassumption. Qed.

Lemma assign_loop_unaliased t e lo hi m : covers t lo hi -> blind e t lo hi m ->
  assign_loop t e (indices (dims (vw t))) m = assign_spec t e m.
Proof.
  intros Hwin Hb.
  apply (assign_loop_inv t e (eval e m) (fun todo m' => Forall (inb (dims (vw t))) todo /\ agree_outside (par t) lo hi m m')).
  - intros i todo m' [Hin Hag]. apply Forall_cons_iff in Hin. destruct Hin as [Hi Hin]. split; [apply Hb; assumption|].
    split; [exact Hin|apply upd_agree; auto].
  - split; [apply indices_inb|apply agree_refl].
Qed.

Definition inj_view (v : view) : Prop := forall i j, inb (dims v) i -> inb (dims v) j -> addr v i = addr v j -> i = j.

Lemma store_list_other t : forall idxs vals m p a, (forall i, In i idxs -> (par t, addr (vw t) i) <> (p, a)) ->
  store_list t idxs vals m p a = m p a.
Proof.
  induction idxs as [|i idxs IH]; intros vals m p a H; [reflexivity|]. destruct vals as [|x xs]; [reflexivity|].
  cbn [store_list]. rewrite IH by (intros j Hj; apply H; right; exact Hj).
  unfold upd. destruct (Nat.eqb_spec p (par t)) as [->|]; simpl; [|reflexivity].
  destruct (Z.eqb_spec a (addr (vw t) i)) as [->|]; [|reflexivity]. exfalso. apply (H i); [left; reflexivity|reflexivity].
Qed.

(* e1 is t op e whichever way it is bracketed with noalias.  Besides agreeing outside the window, the memory still holds
   the initial value of every element yet to be written: the index list has no repetition and the view is one-to-one *)
Lemma compound_loop_unaliased o t e e1 lo hi m : covers t lo hi -> inj_view (vw t) -> blind e t lo hi m ->
  (forall m' i, eval e1 m' i = bin o (m' (par t) (addr (vw t) i)) (eval e m' i)) ->
  assign_loop t e1 (indices (dims (vw t))) m = assign_op_spec o t e m.
Proof.
  intros Hwin Hinj Hb He1.
  apply (assign_loop_inv t e1 (eval (EBin o (ELeaf t) e) m) (fun todo m' => NoDup todo /\ agree_outside (par t) lo hi m m' /\
           forall i, In i todo -> inb (dims (vw t)) i /\ m' (par t) (addr (vw t) i) = m (par t) (addr (vw t) i))).
  - intros i todo m' (Hnd & Hag & Hfresh). destruct (Hfresh i (or_introl eq_refl)) as [Hi Hv].
    apply NoDup_cons_iff in Hnd. destruct Hnd as [Hnot Hnd]. split; [|split; [exact Hnd|split]].
    + rewrite He1, Hv. cbn [eval]. f_equal. apply Hb; assumption.
    + apply upd_agree; auto.
    + intros j Hj. destruct (Hfresh j (or_intror Hj)) as [Hjb Hjv]. split; [exact Hjb|].
      unfold upd. rewrite Nat.eqb_refl. destruct (Z.eqb_spec (addr (vw t) j) (addr (vw t) i)) as [E|_]; [|exact Hjv].
      apply Hinj in E; [subst j; contradiction|assumption..].
  - split; [apply indices_NoDup|]. split; [apply agree_refl|]. intros i Hi. split; [|reflexivity]. revert i Hi. apply Forall_forall, indices_inb.
Qed.

(* t = noalias(t op e), the compound assignment before the repair 2198a7e of /repo, is right when e does not overlap t *)
Theorem assign_op_old_correct o t e m : inj_view (vw t) -> shape e (dims (vw t)) -> no_noalias e = true ->
  (let '(lo, hi) := data_range (vw t) in is_aliased e (par t) lo hi = false) ->
  assign_op_old o t e m = assign_op_spec o t e m.
Proof.
  intros Hinj Hs Hn. unfold assign_op_old, assign. destruct (data_range (vw t)) as [lo hi] eqn:Er. cbn [is_aliased].
  intros Ha. apply (compound_loop_unaliased o t e _ lo hi); auto using data_range_covers, unaliased_blind.
Qed.

Lemma where_loop_unaliased t mask e lo hi m0 : covers t lo hi -> blind e t lo hi m0 -> blind mask t lo hi m0 ->
  forall idxs, Forall (inb (dims (vw t))) idxs ->
  forall m, agree_outside (par t) lo hi m0 m ->
  where_loop t mask e idxs m =
  fold_left (fun mm imx => let '(i, (mk, x)) := imx in if mk =? 0 then mm else upd mm (par t) (addr (vw t) i) x)
            (combine idxs (combine (map (eval mask m0) idxs) (map (eval e m0) idxs))) m.
Proof.
  intros Hwin Hbe Hbm. induction 1 as [|i idxs Hi _ IH]; intros m Hag; [reflexivity|].
  cbn [where_loop map combine fold_left].
  rewrite (Hbm m i Hag Hi), (Hbe m i Hag Hi).
  apply IH. destruct (eval mask m0 i =? 0); [exact Hag|]. apply upd_agree; auto.
Qed.

(* no theorem about scalar fill: [fill] writes every element of the view, whatever the sign of the strides, by
   definition; the loop of assign_inactive_scalar_ is compared with it by the correspondence run *)
