(* C07 — array data lives while referenced; only copy-construction and link share it.
   Model Storage.v (Storage.h; constructors, assignment, link, resize, clear, destructor of Array.h). *)
From Coq Require Import ZArith List Bool Lia.
From Adept Require Import Storage StorageProofs StorageGen.
From AdeptGen Require Import Gen_Globals.
Import ListNotations.
Local Open Scope Z_scope.

(* over EVERY history of life-cycle operations: for each Storage not yet deleted the link count equals the
   number of live array objects that own a link to it (and is at least 1); no owner refers to a deleted
   Storage; the number of existing Storage objects is created - deleted; no link operation ever touches a
   deleted Storage (no double free) *)
Theorem C07_invariant_every_history : forall nslots buffers ops, Inv (srun nslots buffers ops).
Proof. intros nslots buffers ops. apply (ListProofs.fold_left_inv Inv sstep step_inv), Inv_init. Qed.
Print Assumptions C07_invariant_every_history.

Theorem C07_no_double_free : forall nslots buffers ops, faults (srun nslots buffers ops) = 0.
Proof. intros. apply inv_flt, C07_invariant_every_history. Qed.
Print Assumptions C07_no_double_free.

(* the data behind every live owning array is valid *)
Theorem C07_no_dangling_owner : forall nslots buffers ops i s, let st := srun nslots buffers ops in
  (i < length (arrs st))%nat -> live (get_arr st i) = true -> owns (get_arr st i) = true -> plc (get_arr st i) = PSto s ->
  (s < length (stos st))%nat /\ freed (get_sto st s) = false /\ links (get_sto st s) = refs (arrs st) s /\ 1 <= links (get_sto st s).
Proof. intros nslots buffers ops i s st. apply owner_data_alive, C07_invariant_every_history. Qed.
Print Assumptions C07_no_dangling_owner.

(* library-owned data is released: once the last array object is gone, created = deleted *)
Theorem C07_no_leak : forall nslots buffers ops, let st := srun nslots buffers ops in
  (forall i, (i < length (arrs st))%nat -> live (get_arr st i) = false) -> created st = deleted st.
Proof. intros nslots buffers ops st. apply no_leak, C07_invariant_every_history. Qed.
Print Assumptions C07_no_leak.

(* "=" (copy assignment, move from an owning temporary, from a temporary on user memory, from an rvalue
   slice) never makes the target refer to memory it did not refer to before: its data stays where it was
   or moves to a Storage created by this operation - so later changes to the source, or to external or
   stack memory the source pointed at, cannot show through the target *)
Theorem C07_assignment_owns : forall st o i, is_assignment o i = true ->
  plc (get_arr (sstep st o) i) = plc (get_arr st i) \/
  exists s, plc (get_arr (sstep st o) i) = PSto s /\ (length (stos st) <= s)%nat.
Proof.
  intros st o i Ha. destruct o as [| | | | | | |i' j|i' n v|i' k|i' j b n| | | |]; try discriminate Ha;
    apply Nat.eqb_eq in Ha; subst i'; cbn [sstep]; (guarded E; [|left; reflexivity]); pose proof (usable_lt st i E) as Hi.
  - apply copy_into_place, Hi.
  - (* a move from a temporary that owns its data: swap, size mismatch, or element-wise copy *)
    destruct (_ && _); [|destruct (_ || _); [left; reflexivity|apply (copy_into_place st), Hi]].
    right. exists (length (stos (release st i))). unfold new_sto. rewrite get_put_same by (simpl; rewrite arrs_release; exact Hi).
    split; [reflexivity|]. rewrite stos_length_release. lia.
  - apply copy_into_place, Hi.
  - apply copy_into_place, Hi.
Qed.
Print Assumptions C07_assignment_owns.

(* non-vacuity: share three ways, assign, move, release out of order *)
Example C07_example :
  let ops := [ANew 0 3 5; ACopy 1 0; ASlice 2 0 1 2; AEmpty 3; AAssign 3 2; AMoveExt 3 0; AMoveOwn 3 2 8; ALink 3 1; ADestroy 0; ADestroy 1; AClear 2] in
  let st := srun 6 [[900;901;902;903]] ops in
  created st - deleted st = 1 /\ links (get_sto st 0) = 1 /\ plc (get_arr st 3) = PSto 0%nat /\ faults st = 0.
Proof. vm_compute. repeat split. Qed.

(* Tie G.  The link operations as read from Storage.h on every run (micro-steps of add_link / remove_link, the count a
   constructor starts with), run by one thread, are the model's: add_link adds exactly one; remove_link on a count >= 1
   does not throw, subtracts exactly one and deletes the object exactly when the result is zero (and on a count of zero it
   throws and changes nothing); a new Storage starts with the generated initial count. *)
Theorem C07_generated_link_operations : forall st s,
  freed (get_sto st s) = false -> (s < length (stos st))%nat ->
  (let o := get_sto (add_link st s) s in
   links o = l_links (seq_run add_link_steps (links (get_sto st s))) /\ freed o = false /\ cells o = cells (get_sto st s)) /\
  (1 <= links (get_sto st s) ->
   let r := seq_run remove_link_steps (links (get_sto st s)) in
   let o := get_sto (remove_link st s) s in
   l_threw r = false /\ links o = l_links r /\ freed o = l_deleted r /\ cells o = cells (get_sto st s) /\
   deleted (remove_link st s) = (if l_deleted r then deleted st + 1 else deleted st) /\
   faults (remove_link st s) = faults st) /\
  seq_run remove_link_steps 0 = mkL 0 false true /\
  (forall n v, links (get_sto (fst (new_sto st n v)) (snd (new_sto st n v))) = initial_links).
Proof.
  intros st s Hf Hs. split; [|split; [|split]].
  - rewrite generated_add_link. cbn [l_links].
    unfold add_link. rewrite get_sto_set by exact Hs. cbn [links freed cells]. rewrite Hf. repeat split; reflexivity.
  - intros Hl. rewrite generated_remove_link.
    destruct (Z.eqb_spec (links (get_sto st s)) 0) as [H0|_]; [lia|]. cbn [l_threw l_links l_deleted].
    rewrite (remove_link_live st s Hf). cbv zeta. rewrite get_sto_set by exact Hs. cbn [links freed cells deleted faults].
    repeat split; reflexivity.
  - exact (generated_remove_link 0).
  - intros n v. unfold new_sto, get_sto. cbn [fst snd stos]. rewrite nth_snoc, Nat.eqb_refl. reflexivity.
Qed.
Print Assumptions C07_generated_link_operations.
