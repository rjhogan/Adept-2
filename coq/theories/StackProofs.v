(* C10 / C11 (tie G): the gradient-list bookkeeping of adept::Stack, as translated from Stack.cpp / Stack.h (Gen_Stack.v),
   keeps the recorded buffer length equal to the true one and never touches the buffer beyond its true length; what it
   does to the counters and which exception it raises is stated here on the translated state alone, and compared with the
   model Protocol.v in ProtocolStack.v. *)
From Coq Require Import ZArith List Lia.
From Adept Require Import StackDefs.
From AdeptGen Require Import Gen_Stack.
Import ListNotations.
Local Open Scope Z_scope.

Definition nocall : bk -> (bk -> bk) -> bk := fun x k => k x.
Definition call_initialize (s : bk) (k : bk -> bk) : bk := execl 0 0 nocall nocall stk_initialize_gradients s k.
Definition call_extend (s : bk) (k : bk -> bk) : bk := execl 0 0 nocall nocall stk_extend_gradients s k.
Definition do_initialize (s : bk) : bk := call_initialize s (fun x => x).
Definition do_extend (s : bk) : bk := call_extend s (fun x => x).
Definition do_set (pstart pend : Z) (s : bk) : bk := run pstart pend call_initialize call_extend stk_set_gradients s.
Definition do_get (pstart pend : Z) (s : bk) : bk := run pstart pend call_initialize call_extend stk_get_gradients s.
Definition do_get_strided (pstart pend : Z) (s : bk) : bk := run pstart pend call_initialize call_extend stk_get_gradients_strided s.
Definition do_adjoint (s : bk) : bk := run 0 0 call_initialize call_extend stk_compute_adjoint s.
Definition do_tangent (s : bk) : bk := run 0 0 call_initialize call_extend stk_compute_tangent_linear s.
Definition do_clear_gradients (s : bk) : bk := run 0 0 nocall nocall stk_clear_gradients s.
Definition do_new_recording (s : bk) : bk := run 0 0 nocall nocall stk_new_recording s.

Definition good (s : bk) : Prop :=
  b_len s = b_alloc s /\ 0 <= b_max s /\ 0 <= b_alloc s /\ 0 <= b_init s /\ (b_flag s = true -> b_init s <= b_alloc s) /\
  b_err s = None /\ b_tmp s = None /\ b_oob s = false /\ (b_have s = false -> b_len s = 0).

(* The translated code is run on a state with symbolic counters.  [open] makes the state explicit and reads [good] into the
   context without touching the goal, so that the run still stands once, under the [let] of the statement; [ev] evaluates it
   there, to a tree of conditionals with explicit states at the leaves; the tests are split on that one occurrence, and [fin]
   reads the fields off each leaf.  Comparisons and the boolean structure of the range tests stay folded: what is left of a
   postcondition is, conjunct by conjunct, a computation, a hypothesis or linear arithmetic over those tests.
   ([H5] is the clause of [good] on an initialised list, [H9] the one on a missing buffer.) *)
Ltac fields := cbn beta iota delta [b_len b_alloc b_max b_init b_flag b_err b_tmp b_oob b_have b_igrad b_log upd_rest] in *.
Ltac open s := destruct s as [mx al ini ig fl len hv tmp err oob lg]; intros (H1 & H2 & H3 & H4 & H5 & H6 & H7 & H8 & H9); fields; subst.
Ltac ev := let r := fresh "r" in
  intros r; cbv -[Z.add Z.sub Z.ltb Z.leb Z.max Z.le Z.lt Z.ge Z.gt range_oob orb andb] in (value of r); revert r.
Ltac fin := cbv zeta; unfold good, range_oob; fields; repeat split; first [reflexivity | assumption | discriminate | intros; lia].

(* the callees never throw: calling them is running them and continuing *)
Lemma call_initialize_k s k : call_initialize s k = k (do_initialize s).
Proof. destruct s as [mx al ini ig fl len hv tmp err oob lg]. cbv -[Z.ltb]. destruct (0 <? mx); [destruct (al <? mx); [destruct hv|]|]; reflexivity. Qed.
Lemma call_extend_k s k : call_extend s k = k (do_extend s).
Proof. destruct s as [mx al ini ig fl len hv tmp err oob lg]. cbv -[Z.ltb]. destruct (ini <? mx); [destruct (al <? mx); [destruct hv|]|]; reflexivity. Qed.

Theorem initialize_spec s : good s ->
  let r := do_initialize s in
  good r /\ b_flag r = true /\ b_init r = b_max s /\ b_max r = b_max s /\ b_igrad r = b_igrad s /\
  b_alloc r = Z.max (b_alloc s) (b_max s) /\
  b_log r = (if 0 <? b_max s then [EvZero 0 (b_max s)] else []) ++ b_log s.
Proof.
  open s. ev.
  destruct (0 <? mx) eqn:E1; [destruct (al <? mx) eqn:E2; [destruct hv|]|]; fin.
Qed.

(* extend_gradients leaves the buffer at least max_gradient_ long: where it extends nothing (init >= max) the buffer is that
   long before the call, an initialised list having init <= alloc ([good]) *)
Theorem extend_spec s : good s -> b_flag s = true ->
  let r := do_extend s in
  good r /\ b_flag r = true /\ b_init r = b_init s /\ b_max r = b_max s /\ b_igrad r = b_igrad s /\
  b_alloc r = Z.max (b_alloc s) (b_max s) /\
  b_log r = (if b_init s <? b_max s then [EvZero (b_init s) (b_max s)] else []) ++ b_log s.
Proof.
  intros Hg Hf. revert Hg. open s. specialize (H5 eq_refl). ev.
  destruct (ini <? mx) eqn:E1; [destruct (al <? mx) eqn:E2; [destruct hv|]|]; fin.
Qed.

(* set_gradient(s) on [pstart, pend) of an initialised list: gradient_out_of_range exactly when the range reaches beyond what
   the initialisation covered; otherwise the store stays inside the buffer *)
Lemma set_initialised s pstart pend : good s -> b_flag s = true -> 0 <= pstart ->
  let r := do_set pstart pend s in
  b_oob r = false /\ b_len r = b_alloc r /\ b_flag r = true /\ b_init r = b_init s /\ b_alloc r = b_alloc s /\ b_max r = b_max s /\
  b_err r = (if b_init s <? pend then Some XRange else None) /\
  (b_err r = None -> b_log r = EvAccess pstart pend :: b_log s).
Proof.
  intros Hg Hf Hp. revert Hg. open s. specialize (H5 eq_refl). ev.
  destruct (ini <? pend) eqn:E; fin.
Qed.

(* an uninitialised list is initialised first; set_gradient(s) then goes on as on an initialised one *)
Theorem set_gradients_spec s pstart pend : good s -> 0 <= pstart ->
  let r := do_set pstart pend s in
  let s1 := if b_flag s then s else do_initialize s in
  b_oob r = false /\ b_len r = b_alloc r /\ b_flag r = true /\ b_init r = b_init s1 /\ b_alloc r = b_alloc s1 /\ b_max r = b_max s /\
  b_err r = (if b_init s1 <? pend then Some XRange else None) /\
  (b_err r = None -> b_log r = EvAccess pstart pend :: b_log s1).
Proof.
  intros Hg Hp. destruct (b_flag s) eqn:Ef; [exact (set_initialised s pstart pend Hg Ef Hp)|].
  destruct (initialize_spec s Hg) as (G & F & _ & M & _).
  replace (do_set pstart pend s) with (do_set pstart pend (do_initialize s)).
  - rewrite <- M. exact (set_initialised _ pstart pend G F Hp).
  - (* both sides run the rest of set_gradients on [do_initialize s]: the left skips the call, its flag being set; the right makes it *)
    unfold do_set, run, stk_set_gradients. cbn [execl exec ceval]. rewrite !call_initialize_k, F, Ef. reflexivity.
Qed.

Theorem get_gradients_spec s pstart pend : good s -> 0 <= pstart ->
  let r := do_get pstart pend s in
  b_oob r = false /\ b_len r = b_alloc r /\ b_flag r = b_flag s /\ b_init r = b_init s /\ b_alloc r = b_alloc s /\ b_max r = b_max s /\
  b_err r = (if b_flag s then (if b_init s <? pend then Some XRange else None) else Some XNotInit).
Proof.
  intros Hg Hp. revert Hg. open s. ev.
  destruct fl; [specialize (H5 eq_refl); destruct (ini <? pend) eqn:E|]; fin.
Qed.
(* the strided get_gradients has the same guards: the two translated lists coincide *)
Lemma get_gradients_strided_same s pstart pend : do_get_strided pstart pend s = do_get pstart pend s.
Proof. reflexivity. Qed.

(* the two sweeps: gradients_not_initialized without a seed; otherwise the list is extended first, to at least max_gradient_
   entries ([extend_spec]), and the sweep, which touches every index below max_gradient_, stays inside the buffer *)
Theorem sweeps_spec s : good s ->
  let r := do_adjoint s in let r' := do_tangent s in
  b_oob r = false /\ b_oob r' = false /\
  b_err r = (if b_flag s then None else Some XNotInit) /\ b_err r' = b_err r /\
  (b_flag s = true -> b_log r = EvCall CSweepRev :: b_log (do_extend s) /\ b_log r' = EvCall CSweepFwd :: b_log (do_extend s) /\
                      b_init r = b_init s /\ b_max r = b_max s /\ b_len r = b_alloc r /\ b_alloc r = Z.max (b_alloc s) (b_max s) /\ b_flag r = true).
Proof.
  intros Hg r r'. unfold do_adjoint, do_tangent, run, stk_compute_adjoint, stk_compute_tangent_linear in r, r'.
  cbn [execl exec ceval] in r, r'. revert r r'. destruct (b_flag s) eqn:Ef.
  - rewrite !call_extend_k.
    destruct (extend_spec s Hg Ef) as ((L & _ & _ & _ & _ & E & _ & O & _) & Fl & Ei & Em & _ & Ea & _).
    (* the extended state is needed through these facts only: left transparent, the kernel runs the callee again when it compares states *)
    set (e := do_extend s) in *. clearbody e.
    cbv zeta. fields. rewrite O. unfold range_oob. repeat split; first [assumption | discriminate | lia].
  - destruct Hg as (_ & _ & _ & _ & _ & _ & _ & O & _). cbv zeta. fields. repeat split; first [assumption | discriminate].
Qed.

Theorem new_recording_spec s : good s -> 0 <= b_igrad s + 1 ->
  let r := do_new_recording s in
  good r /\ b_flag r = false /\ b_max r = b_igrad s + 1 /\ b_init r = b_init s /\ b_alloc r = b_alloc s /\
  b_log r = [EvNull; EvCall CClearGrad; EvCall CClearDep; EvCall CClearIndep; EvCall CClearStack] ++ b_log s.
Proof. intros Hg Hp. revert Hg. open s. ev. fin. Qed.
Theorem clear_gradients_spec s : good s -> let r := do_clear_gradients s in
  good r /\ b_flag r = false /\ b_max r = b_max s /\ b_init r = b_init s /\ b_alloc r = b_alloc s.
Proof. open s. ev. fin. Qed.
