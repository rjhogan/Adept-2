(* The link operations of Storage as tools/gen_globals.py reads them from Storage.h on every run (the micro-steps of
   add_link / remove_link, the count a constructor starts with), run by one thread from start to end, and what they
   compute; Properties_C07 compares this with the link operations of the life-cycle model Storage.v.  (Conc.v runs the
   same micro-steps under every interleaving: C14.) *)
From Coq Require Import ZArith List.
From Adept Require Import Conc.
From AdeptGen Require Import Gen_Globals.
Local Open Scope Z_scope.

Record lobj := mkL { l_links : Z; l_deleted : bool; l_threw : bool }.
Definition seq_step (o : lobj) (m : mstep) : lobj :=
  if l_threw o then o else
  match m with
  | MCheckNonZero => if l_links o =? 0 then mkL (l_links o) (l_deleted o) true else o
  | MRmw d => mkL (l_links o + d) (l_deleted o) false
  | MRmwDeleteIfZero d => mkL (l_links o + d) (if l_links o + d =? 0 then true else l_deleted o) false
  | MLoadDeleteIfZero => mkL (l_links o) (if l_links o =? 0 then true else l_deleted o) false
  end.
Definition seq_run (ms : list mstep) (n : Z) : lobj := fold_left seq_step ms (mkL n false false).

Lemma generated_add_link : forall n, seq_run add_link_steps n = mkL (n + 1) false false.
Proof. reflexivity. Qed.

Lemma generated_remove_link : forall n,
  seq_run remove_link_steps n =
  if n =? 0 then mkL n false true else mkL (n - 1) (n - 1 =? 0) false.
Proof.
  intros n. unfold seq_run. cbn [remove_link_steps fold_left seq_step l_threw l_links l_deleted].
  destruct (n =? 0); cbn [seq_step l_threw l_links l_deleted]; [reflexivity|].
  change (n + -1) with (n - 1). destruct (n - 1 =? 0); reflexivity.
Qed.
