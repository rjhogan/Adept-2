(* C01: the lemmas from which Properties_C01.v proves that, for every program over active scalars, the recorded tape's
   forward sweep computes the tangents of the dual-number evaluation of the same program, the values are those of the
   plain program, and the reverse sweep seeded at an output gives, for every input, the tangent of that output in the
   direction of that input. *)
From Coq Require Import ZArith List Bool Ring_theory.
From Adept Require Import ListProofs Scalar Expr ExprProofs Tape TapeAdjoint Program.
Import ListNotations.

Section ProgramProofs.
Context {T : Type} (F : FOps T).
Let O := fbase F.
Hypothesis Rth : ring_theory (o0 O) (o1 O) (oadd O) (omul O) (osub O) (oneg O) (@eq T).
Hypothesis Hdiv : forall x y, odiv O x y = omul O x (odiv O (o1 O) y).
Hypothesis Hlit1 : flit F 1 1 = o1 O.

Lemma rhs_val_conv ops g : rhs_val O (conv_ops ops) g = dot_ops F ops (fun z => g (Z.to_nat z)).
Proof.
  unfold conv_ops. induction ops as [|mi ops IH]; [reflexivity|]. cbn [map]. rewrite (rhs_val_cons O Rth), IH. reflexivity.
Qed.
(* the statement recorded for an expression: its value, and a right-hand side that acts on a gradient vector as its tangent *)
Lemma recorded_pair (e : expr) : value_and_gradient F e = (sem F e, snd (value_and_gradient F e)).
Proof. rewrite <- (proj1 (value_and_gradient_correct F Rth Hdiv Hlit1 e (fun _ => o0 O))). apply surjective_pairing. Qed.
Lemma recorded_rhs (e : expr) g : rhs_val O (conv_ops (snd (value_and_gradient F e))) g = tangent F (fun z => g (Z.to_nat z)) e.
Proof. rewrite rhs_val_conv. apply (value_and_gradient_correct F Rth Hdiv Hlit1). Qed.

Lemma exec_snoc p s vals0 : exec F (p ++ [s]) vals0 = exec1 F (exec F p vals0) s.
Proof. unfold exec. rewrite fold_left_app. reflexivity. Qed.

Theorem exec_forward p vals0 u0 :
  fst (exec F p vals0) = fst (dexec F p vals0 u0) /\
  fwd_sweep O (snd (exec F p vals0)) u0 = snd (dexec F p vals0 u0).
Proof.
  pose proof (fold_left_sim (fun st d => fst st = fst d /\ fwd_sweep O (snd st) u0 = snd d) (exec1 F) (dexec1 F) (fun s => s) p) as G.
  rewrite map_id in G. apply G; [|split; reflexivity].
  intros [vals tp] [dv dt] s [Hv Ht]. cbn [fst snd] in *. subst dv.
  destruct s as [x c|x e|x c]; cbn [exec1 dexec1 fst snd].
  - split; [reflexivity|]. rewrite fwd_sweep_snoc, Ht, (rhs_val_nil O). reflexivity.
  - rewrite recorded_pair. split; [reflexivity|]. cbn [snd]. rewrite fwd_sweep_snoc, Ht, recorded_rhs. reflexivity.
  - split; [reflexivity|exact Ht].
Qed.

Fixpoint gis (e : expr (T:=T)) : list Z :=
  match e with XAct gi _ => [gi] | XArr act gi _ => if act then [gi] else [] | XPas _ => [] | XUn _ a => gis a | XBin _ l r => gis l ++ gis r end.
Lemma calc_gradient_indices arrs (e : expr) : forall A S scr w, arrs_ok F arrs e A ->
  Forall (fun mi => In (snd mi) (gis e)) (calc_gradient F arrs e A S scr w).
Proof.
  induction e as [gi v|act gi v|v|f a IH|k l IHl r IHr]; intros A S scr w Ha; cbn [gis].
  - constructor; [left; reflexivity|constructor].
  - cbn [calc_gradient]. cbn [arrs_ok] in Ha. rewrite Ha. destruct act; [constructor; [left; reflexivity|constructor]|constructor].
  - constructor.
  - rewrite calc_gradient_un. apply IH. exact Ha.
  - destruct Ha as [Hal Har]. rewrite calc_gradient_bin. apply Forall_app. split.
    + destruct (is_active l && _); [|constructor].
      eapply Forall_impl; [|apply IHl; exact Hal]. intros mi Hin. apply in_or_app. left. exact Hin.
    + destruct (is_active r && _); [|constructor].
      eapply Forall_impl; [|apply IHr; exact Har]. intros mi Hin. apply in_or_app. right. exact Hin.
Qed.

Lemma gis_instantiate n vals e : vars_below n e = true -> Forall (fun z => (Z.to_nat z < n)%nat) (gis (instantiate vals e)).
Proof.
  induction e as [x|c|f a IH|k l IHl r IHr]; cbn [vars_below instantiate gis]; intros H.
  - constructor; [|constructor]. rewrite Nat2Z.id. apply Nat.ltb_lt. exact H.
  - constructor.
  - apply IH. exact H.
  - apply andb_true_iff in H. destruct H as [Hl Hr]. apply Forall_app. split; [apply IHl|apply IHr]; assumption.
Qed.

Lemma exec_wf n p vals0 : forallb (stmt_below n) p = true -> Forall (wf_stmt n) (snd (exec F p vals0)).
Proof.
  induction p as [|s p IH] using rev_ind; intros H; [constructor|].
  rewrite forallb_app in H. apply andb_true_iff in H. destruct H as [Hp Hs]. cbn [forallb] in Hs. rewrite andb_true_r in Hs.
  rewrite exec_snoc. specialize (IH Hp). destruct (exec F p vals0) as [vals tp].
  destruct s as [x c|x e|x c]; cbn [exec1 stmt_below] in *.
  - apply Forall_snoc; [exact IH|]. split; [apply Nat.ltb_lt; exact Hs|constructor].
  - apply andb_true_iff in Hs. destruct Hs as [Hx He].
    unfold value_and_gradient.
    destruct (value_store F (arrays_of (instantiate vals e)) (instantiate vals e) 0 0 (fun _ => o0 (fbase F))) as [v scr].
    apply Forall_snoc; [exact IH|]. split; [apply Nat.ltb_lt; exact Hx|].
    unfold conv_ops. apply Forall_map.
    pose proof (gis_instantiate n vals e He) as Hg. rewrite Forall_forall in Hg.
    eapply Forall_impl; [|apply calc_gradient_indices, arrs_ok_top]. intros mi. apply Hg.
  - exact IH.
Qed.

End ProgramProofs.
