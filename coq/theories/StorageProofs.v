(* C07: reference-count invariant of the array life-cycle model (Storage.v), for every history.
   [Inv] is the invariant as the theorems state it; the proofs carry it in a form indexed by a debt ([InvD]), which
   also holds between the primitives that make up one operation.  Every primitive changes one entry of the Storage
   table ([InvD_set], [InvD_snoc]); every operation that writes a slot vacates it and then fills it ([vacated]). *)
From Coq Require Import ZArith List Bool Lia.
From Adept Require Import ListProofs Storage.
Import ListNotations.
Local Open Scope Z_scope.

Lemma nth_snoc {A} (l : list A) x d t : nth t (l ++ [x]) d = if Nat.eqb t (length l) then x else nth t l d.
Proof. revert t. induction l as [|a l IH]; intros [|t]; cbn; [reflexivity|destruct t; reflexivity|reflexivity|apply IH]. Qed.

Lemma get_sto_set st s x b a c d f : (s < length (stos st))%nat -> get_sto (mkState (set_nth s x (stos st)) b a c d f) s = x.
Proof. apply nth_set_nth_same. Qed.
Lemma usable_lt st i : usable st i = true -> (i < length (arrs st))%nat.
Proof. unfold usable, get_arr. intros H. destruct (Nat.lt_ge_cases i (length (arrs st))); [assumption|]. rewrite nth_overflow in H by assumption. discriminate. Qed.

Definition holds (a : arr) (s : nat) : Z :=
  if live a && owns a && (match plc a with PSto t => Nat.eqb t s | _ => false end) then 1 else 0.
Fixpoint refs (l : list arr) (s : nat) : Z := match l with [] => 0 | a :: t => holds a s + refs t s end.
Definition nonholding (a : arr) : Prop := forall s, holds a s = 0.
Definition one (s t : nat) : Z := if Nat.eqb s t then 1 else 0.

Lemma holds_01 a s : 0 <= holds a s <= 1.
Proof. unfold holds. destruct (live a && owns a && _); lia. Qed.
Lemma refs_nonneg l s : 0 <= refs l s.
Proof. induction l as [|a t IH]; simpl; [lia|]. pose proof (holds_01 a s). lia. Qed.
Lemma refs_set_nth l k x s : (k < length l)%nat ->
  refs (set_nth k x l) s = refs l s - holds (nth k l dead_arr) s + holds x s.
Proof. intros H. exact (sum_set_nth (fun l => refs l s) (fun a => holds a s) (fun _ _ => eq_refl) k _ x l (nth_error_nth' l dead_arr H)). Qed.
Lemma refs_ge_nth l k s : (k < length l)%nat -> holds (nth k l dead_arr) s <= refs l s.
Proof. (* the others, slot k set dead, hold a non-negative number *)
  intros H. pose proof (refs_nonneg (set_nth k dead_arr l) s) as H0. rewrite refs_set_nth in H0 by exact H. cbn in H0. lia. Qed.
Lemma refs_repeat_dead n s : refs (repeat dead_arr n) s = 0.
Proof. induction n; simpl; auto. Qed.
Lemma nonholding_dead : nonholding dead_arr. Proof. intro s. reflexivity. Qed.
Lemma nonholding_empty : nonholding empty_arr. Proof. intro s. reflexivity. Qed.
Lemma nonholding_notowns a : owns a = false -> nonholding a.
Proof. intros H s. unfold holds. rewrite H, andb_false_r. reflexivity. Qed.
Lemma nonholding_notlive a : live a = false -> nonholding a.
Proof. intros H s. unfold holds. rewrite H. reflexivity. Qed.
Lemma nonholding_nosto a : (forall s, plc a <> PSto s) -> nonholding a.
Proof. intros H s. unfold holds. destruct (plc a) as [|t|]; [|destruct (H t eq_refl)|]; rewrite andb_false_r; reflexivity. Qed.
Lemma holds_owner s n o l : holds (mkArr true true (PSto s) o l) n = one s n.
Proof. reflexivity. Qed.
Lemma one_other s t : t <> s -> one s t = 0.
Proof. unfold one. destruct (Nat.eqb_spec s t); congruence. Qed.
Lemma one_same s : one s s = 1.
Proof. unfold one. rewrite Nat.eqb_refl. reflexivity. Qed.


Fixpoint unfreed (l : list sto) : Z := match l with [] => 0 | o :: t => (if freed o then 0 else 1) + unfreed t end.
Definition dsto : sto := mkSto 0 true [].
Record Inv (st : state) : Prop := mkInv {
  inv_sto : forall s, (s < length (stos st))%nat ->
      let o := nth s (stos st) dsto in
      (freed o = false -> links o = refs (arrs st) s /\ 1 <= links o) /\ (freed o = true -> refs (arrs st) s = 0);
  inv_rng : forall s, (length (stos st) <= s)%nat -> refs (arrs st) s = 0;
  inv_cnt : created st - deleted st = unfreed (stos st);
  inv_flt : faults st = 0
}.

Lemma unfreed_set_nth l k o : (k < length l)%nat ->
  unfreed (set_nth k o l) = unfreed l - (if freed (nth k l dsto) then 0 else 1) + (if freed o then 0 else 1).
Proof. intros H. exact (sum_set_nth unfreed (fun o => if freed o then 0 else 1) (fun _ _ => eq_refl) k _ o l (nth_error_nth' l dsto H)). Qed.
Lemma unfreed_app l1 l2 : unfreed (l1 ++ l2) = unfreed l1 + unfreed l2.
Proof. induction l1; simpl; lia. Qed.

(* [inv_sto] and [inv_rng] are one condition on every storage number,
   since [get_sto] answers a deleted Storage without links for a number the table does not have.  Between the steps
   of one operation links are in transit: [d s] links to s are held by no slot (negative: a slot still shows a link it
   has given back).  Each primitive of the model moves the debt by one; an operation is sound because its debts cancel
   when the slot is written ([refill]) *)
Definition balanced (o : sto) (r : Z) : Prop := if freed o then r = 0 else links o = r /\ 1 <= links o.
Definition InvD (d : nat -> Z) (st : state) : Prop :=
  (forall s, balanced (get_sto st s) (refs (arrs st) s + d s)) /\
  created st - deleted st = unfreed (stos st) /\ faults st = 0.

Lemma Inv_InvD st : Inv st <-> InvD (fun _ => 0) st.
Proof.
  unfold InvD, balanced, get_sto; fold dsto. split.
  - intros [H1 H2 H3 H4]. split; [|auto]. intros s. rewrite Z.add_0_r.
    destruct (Nat.lt_ge_cases s (length (stos st))) as [Hs|Hs].
    + specialize (H1 s Hs). cbv zeta in H1. destruct (freed _); [apply (proj2 H1)|apply (proj1 H1)]; reflexivity.
    + rewrite nth_overflow by exact Hs. apply H2, Hs.
  - intros (H & H3 & H4). constructor; auto; intros s Hs; specialize (H s); rewrite Z.add_0_r in H.
    + cbv zeta. destruct (freed _); split; congruence.
    + rewrite nth_overflow in H by exact Hs. exact H.
Qed.
Lemma InvD_ext d d' st : (forall s, d' s = d s) -> InvD d st -> InvD d' st.
Proof. intros E (H & Hc). split; [|exact Hc]. intros s. rewrite E. apply H. Qed.

Lemma Inv_init n b : Inv (sinit n b).
Proof. constructor; cbn; [intros s Hs; lia|intros s _; apply refs_repeat_dead|reflexivity..]. Qed.

Lemma unfreed_D d st s : InvD d st -> 1 <= refs (arrs st) s + d s -> (s < length (stos st))%nat /\ freed (get_sto st s) = false.
Proof.
  intros (H & _) Hge. specialize (H s). unfold balanced in H. destruct (freed (get_sto st s)) eqn:E; [lia|]. split; [|reflexivity].
  destruct (Nat.lt_ge_cases s (length (stos st))) as [Hs|Hs]; [exact Hs|].
  unfold get_sto in E. rewrite nth_overflow in E by exact Hs. discriminate.
Qed.
Lemma holder_unfreed st i s : Inv st -> (i < length (arrs st))%nat -> holds (get_arr st i) s = 1 ->
  (s < length (stos st))%nat /\ freed (get_sto st s) = false.
Proof.
  intros HI Hi Hh. apply (unfreed_D (fun _ => 0)); [apply Inv_InvD, HI|].
  pose proof (refs_ge_nth (arrs st) i s Hi) as Hge. fold (get_arr st i) in Hge. lia.
Qed.

Lemma InvD_set d d' st s o' c' x' : InvD d st -> (s < length (stos st))%nat ->
  (forall t, t <> s -> d' t = d t) -> balanced o' (refs (arrs st) s + d' s) ->
  c' - x' = created st - deleted st - (if freed (get_sto st s) then 0 else 1) + (if freed o' then 0 else 1) ->
  InvD d' (mkState (set_nth s o' (stos st)) (bufs st) (arrs st) c' x' (faults st)).
Proof.
  intros (H & Hc & Hfl) Hs E Hb Hc'. split; [|split; [|exact Hfl]]; cbn.
  - intros t. unfold get_sto. destruct (Nat.eq_dec t s) as [->|Hne].
    + rewrite nth_set_nth_same by exact Hs. exact Hb.
    + rewrite nth_set_nth_other, (E t Hne) by exact Hne. apply H.
  - rewrite unfreed_set_nth by exact Hs. unfold get_sto in Hc'; fold dsto in Hc'. lia.
Qed.
(* the number of a new entry was answered by [dsto] before: nothing refers to it, so only the change of debt counts *)
Lemma InvD_snoc d d' st o' c' x' : InvD d st -> (forall t, t <> length (stos st) -> d' t = d t) ->
  balanced o' (d' (length (stos st)) - d (length (stos st))) ->
  c' - x' = created st - deleted st + (if freed o' then 0 else 1) ->
  InvD d' (mkState (stos st ++ [o']) (bufs st) (arrs st) c' x' (faults st)).
Proof.
  intros (H & Hc & Hfl) E Hb Hc'. split; [|split; [|exact Hfl]]; cbn.
  - intros t. specialize (H t). unfold get_sto in *. rewrite nth_snoc.
    destruct (Nat.eqb_spec t (length (stos st))) as [->|Hne]; [|rewrite (E t Hne); exact H].
    rewrite nth_overflow in H by lia. cbn in H. replace (_ + _) with (d' (length (stos st)) - d (length (stos st))) by lia. exact Hb.
  - rewrite unfreed_app. simpl. lia.
Qed.

Lemma add_link_D d st s : InvD d st -> (s < length (stos st))%nat -> freed (get_sto st s) = false ->
  InvD (fun t => d t + one s t) (add_link st s).
Proof.
  intros HD Hs Hf. unfold add_link. rewrite Hf. apply (InvD_set d); auto; cbn.
  - intros t Hne. rewrite one_other by exact Hne. lia.
  - rewrite one_same. destruct HD as (H & _). specialize (H s). unfold balanced in *. rewrite Hf in *. lia.
  - rewrite Hf. lia.
Qed.
Lemma remove_link_live st s : freed (get_sto st s) = false ->
  let o := get_sto st s in let z := links o - 1 =? 0 in
  remove_link st s = mkState (set_nth s (mkSto (links o - 1) z (cells o)) (stos st)) (bufs st) (arrs st)
                             (created st) (if z then deleted st + 1 else deleted st) (faults st).
Proof. intros Hf. unfold remove_link. rewrite Hf. destruct (Z.eqb_spec (links (get_sto st s) - 1) 0) as [->|]; reflexivity. Qed.
Lemma remove_link_D d st s : InvD d st -> (s < length (stos st))%nat -> freed (get_sto st s) = false ->
  InvD (fun t => d t - one s t) (remove_link st s).
Proof.
  intros HD Hs Hf. rewrite (remove_link_live st s Hf). apply (InvD_set d); auto; cbn.
  - intros t Hne. rewrite one_other by exact Hne. lia.
  - rewrite one_same. destruct HD as (H & _). specialize (H s). unfold balanced in *. cbn. rewrite Hf in H.
    destruct (Z.eqb_spec (links (get_sto st s) - 1) 0); lia.
  - rewrite Hf. destruct (_ =? 0); lia.
Qed.
Lemma new_sto_D d st n v : InvD d st -> InvD (fun t => d t + one (length (stos st)) t) (fst (new_sto st n v)).
Proof.
  intros HD. apply (InvD_snoc d); auto; cbn.
  - intros t Hne. rewrite one_other by exact Hne. lia.
  - rewrite one_same. unfold balanced. cbn. lia.
  - lia.
Qed.
Lemma write_inv st a vs : Inv st -> Inv (write_cells st a vs).
Proof.
  intros HI. unfold write_cells. destruct (plc a) as [|s|k]; [exact HI| |destruct HI; constructor; assumption].
  destruct (Nat.lt_ge_cases s (length (stos st))) as [Hs|Hs]; [|rewrite set_nth_overflow by exact Hs; destruct st; exact HI].
  apply Inv_InvD in HI. apply Inv_InvD, (InvD_set (fun _ => 0)); auto; cbn; [|lia]. destruct HI as (H & _). apply H.
Qed.
Lemma temp_inv st : Inv st -> Inv (temp_cycle st).
Proof. rewrite !Inv_InvD. intros HD. apply (InvD_snoc (fun _ => 0)); auto; cbn; [reflexivity|lia]. Qed.

Definition holder (a : arr) : option nat :=
  match plc a with PSto s => if live a && owns a then Some s else None | _ => None end.
Lemma holds_holder a t : holds a t = match holder a with Some s => one s t | None => 0 end.
Proof. unfold holds, holder. destruct (plc a); rewrite ?andb_false_r; try reflexivity. destruct (live a && owns a); reflexivity. Qed.
Lemma release_holder st i : release st i = match holder (get_arr st i) with Some s => remove_link st s | None => st end.
Proof. unfold release, holder. destruct (plc _); try reflexivity. destruct (_ && _); reflexivity. Qed.
Lemma share_holder a (f : nat -> state) st1 : live a = true ->
  match plc a with PSto s => if owns a then f s else st1 | _ => st1 end = match holder a with Some s => f s | None => st1 end.
Proof. intros Hl. unfold holder. rewrite Hl. destruct (plc a); try reflexivity. destruct (owns a); reflexivity. Qed.
Lemma arrs_release st i : arrs (release st i) = arrs st.
Proof. rewrite release_holder. destruct (holder _) as [s|]; [|reflexivity].
  unfold remove_link. destruct (freed (get_sto st s)); [reflexivity|]. destruct (_ =? 0); reflexivity. Qed.
(* the slot is written last: the debt must cancel against what the slot showed and what it shows now *)
Lemma refill d st st' i a' : InvD d st' -> arrs st' = arrs st -> (i < length (arrs st))%nat ->
  (forall t, d t + holds (get_arr st i) t = holds a' t) -> Inv (put_arr st' i a').
Proof.
  intros (H & Hc) Ea Hi E. apply Inv_InvD. split; [|exact Hc]. intros s. specialize (H s). specialize (E s). cbn.
  rewrite Ea in *. rewrite refs_set_nth by exact Hi. fold (get_arr st i).
  replace (_ + 0) with (refs (arrs st) s + d s) by lia. exact H.
Qed.

(* Every operation that writes slot i first vacates it, then fills it.  [vacated st st1 i]: st1 is st with the link
   of slot i given back, while the slot still shows it *)
Definition vacated (st st1 : state) (i : nat) : Prop :=
  (i < length (arrs st))%nat /\ arrs st1 = arrs st /\ InvD (fun s => - holds (get_arr st i) s) st1.

Lemma vacated_nonholding st i : Inv st -> (i < length (arrs st))%nat -> nonholding (get_arr st i) -> vacated st st i.
Proof.
  intros HI Hi Hn. split; [exact Hi|split; [reflexivity|]].
  apply (InvD_ext (fun _ => 0)); [intros s; rewrite (Hn s); reflexivity|apply Inv_InvD, HI].
Qed.
Lemma vacated_unused st i : Inv st -> unused st i = true -> vacated st st i.
Proof.
  intros HI H. apply andb_true_iff in H. destruct H as [Hd Hi].
  apply vacated_nonholding; [exact HI|apply Nat.ltb_lt, Hi|apply nonholding_notlive, negb_true_iff, Hd].
Qed.
Lemma vacated_release st i : Inv st -> usable st i = true -> vacated st (release st i) i.
Proof.
  intros HI Hu. pose proof (usable_lt st i Hu) as Hi. split; [exact Hi|split; [apply arrs_release|]]. rewrite release_holder.
  pose proof (holds_holder (get_arr st i)) as Hh. destruct (holder (get_arr st i)) as [s|].
  - destruct (holder_unfreed st i s HI Hi) as [Hs Hf]; [rewrite Hh; apply one_same|].
    apply (InvD_ext (fun t => 0 - one s t)); [intros t; rewrite Hh; reflexivity|]. apply remove_link_D; auto. apply Inv_InvD, HI.
  - exact (proj2 (proj2 (vacated_nonholding st i HI Hi Hh))).
Qed.

Lemma fill_nonholding st st1 i a' : vacated st st1 i -> nonholding a' -> Inv (put_arr st1 i a').
Proof. intros (Hi & Ea & HD) Hn. apply (refill _ st st1 i a' HD Ea Hi). intros t. rewrite (Hn t). lia. Qed.
Lemma fill_fresh st st1 i n v o l : vacated st st1 i ->
  Inv (put_arr (fst (new_sto st1 n v)) i (mkArr true true (PSto (length (stos st1))) o l)).
Proof.
  intros (Hi & Ea & HD). apply (refill _ st _ _ _ (new_sto_D _ _ n v HD) Ea Hi).
  intros t. rewrite holds_owner. lia.
Qed.
Lemma fresh st i n v o l : Inv st -> (i < length (arrs st))%nat -> nonholding (get_arr st i) ->
  Inv (put_arr (fst (new_sto st n v)) i (mkArr true true (PSto (length (stos st))) o l)).
Proof. intros HI Hi Hn. apply (fill_fresh st), vacated_nonholding; assumption. Qed.

Definition share_of (a : arr) (o l : nat) : arr := mkArr true (owns a) (plc a) o l.
Lemma holds_share a o l s : live a = true -> holds (share_of a o l) s = holds a s.
Proof. intros H. unfold holds, share_of. rewrite H. reflexivity. Qed.
Lemma refs_ge_two l s i j : j <> i -> (i < length l)%nat -> (j < length l)%nat ->
  holds (nth i l dead_arr) s + holds (nth j l dead_arr) s <= refs l s.
Proof.
  intros Hne Hi Hj. pose proof (refs_ge_nth (set_nth i dead_arr l) j s) as H.
  rewrite length_set_nth, nth_set_nth_other, refs_set_nth in H by auto. cbn in H. lia.
Qed.
(* the Storage that slot j owns has a link besides the one slot i gave back, so it is not deleted and takes one more *)
Lemma fill_share st st1 i j o l : vacated st st1 i -> usable st j = true -> j <> i ->
  Inv (put_arr (match plc (get_arr st j) with PSto s => if owns (get_arr st j) then add_link st1 s else st1 | _ => st1 end)
               i (share_of (get_arr st j) o l)).
Proof.
  intros (Hi & Ea & HD) Hl Hne. pose proof (usable_lt st j Hl) as Hj. set (a := get_arr st j) in *. rewrite share_holder by exact Hl.
  pose proof (holds_holder a) as Hh. destruct (holder a) as [s|].
  - destruct (unfreed_D _ st1 s HD) as [Hs Hf].
    { pose proof (refs_ge_two (arrs st) s i j Hne Hi Hj) as Hge. fold (get_arr st i) (get_arr st j) a in Hge.
      rewrite Ea. rewrite Hh, one_same in Hge. lia. }
    apply (refill _ st _ i _ (add_link_D _ _ _ HD Hs Hf) Ea Hi).
    intros t. rewrite holds_share, Hh by exact Hl. lia.
  - apply (refill _ st _ i _ HD Ea Hi). intros t. rewrite holds_share, Hh by exact Hl. lia.
Qed.

Lemma unused_not_usable st i j : unused st i = true -> usable st j = true -> j <> i.
Proof. unfold unused, usable. intros Hi Hj ->. rewrite Hj in Hi. discriminate. Qed.
Lemma get_put_same st i x : (i < length (arrs st))%nat -> get_arr (put_arr st i x) i = x.
Proof. apply nth_set_nth_same. Qed.

Lemma copy_into_inv st i vals : Inv st -> usable st i = true -> Inv (copy_into st i vals).
Proof.
  intros HI Hu. unfold copy_into. destruct (plc (get_arr st i)) eqn:Ep; [|destruct (Nat.eqb _ _); [apply write_inv|]; exact HI..].
  destruct (Nat.eqb (length vals) 0); [exact HI|]. apply write_inv.
  apply fresh; [exact HI|apply usable_lt, Hu|apply nonholding_nosto; congruence].
Qed.

(* every case of [sstep] is [if g1 && .. && gn then _ else st]: [guarded E] leaves the case where the guard holds, with
   E : g1 = true (the first conjunct says that the slot written is unused, or that it is usable) and the other
   conjuncts as unnamed hypotheses, and then the case [st] *)
Ltac guarded E :=
  match goal with |- context [if ?g then _ else _] => destruct g eqn:E end;
  [repeat match type of E with _ && _ = true => apply andb_true_iff in E; destruct E as [E ?] end|].

(* a constructor writes an unused slot, which is vacated as it stands; the others write the slot after [release] *)
Theorem step_inv st o : Inv st -> Inv (sstep st o).
Proof.
  intros HI.
  destruct o as [i n v|i|i j|i j b n|i j|i k|i j|i j|i n v|i k|i j b n|i n|i|i|i k v]; cbn [sstep]; (guarded E; [|exact HI]).
  - (* ANew *) eapply fill_fresh, vacated_unused; assumption.
  - (* AEmpty *) eapply fill_nonholding, nonholding_empty. apply vacated_unused; assumption.
  - (* ACopy *) eapply fill_share; [apply vacated_unused| |eapply unused_not_usable]; eassumption.
  - (* ASlice *) eapply fill_share; [apply vacated_unused| |eapply unused_not_usable]; eassumption.
  - (* ASoft *) eapply fill_nonholding, nonholding_notowns; [apply vacated_unused; assumption|reflexivity].
  - (* AExt *) eapply fill_nonholding, nonholding_notowns; [apply vacated_unused; assumption|reflexivity].
  - (* ALink: linking to an empty array throws *)
    assert (j <> i) as Hji by (intros ->; rewrite Nat.eqb_refl in *; discriminate).
    assert (HS : Inv (put_arr _ i (share_of (get_arr st j) (off (get_arr st j)) (len (get_arr st j)))))
      by (eapply fill_share; [apply vacated_release| |]; assumption).
    unfold share_of in HS. destruct (plc (get_arr st j)); [exact HI|exact HS..].
  - (* AAssign *) apply copy_into_inv; assumption.
  - (* AMoveOwn: swap, size mismatch, or element-wise copy *) destruct (_ && _).
    + eapply fill_fresh, vacated_release; assumption.
    + destruct (_ || _); auto using temp_inv, copy_into_inv.
  - (* AMoveExt *) apply copy_into_inv; assumption.
  - (* AMoveSlice *) apply copy_into_inv; assumption.
  - (* AResize *) destruct (Nat.eqb n 0); [eapply fill_nonholding, nonholding_empty|eapply fill_fresh]; apply vacated_release; assumption.
  - (* AClear *) eapply fill_nonholding, nonholding_empty. apply vacated_release; assumption.
  - (* ADestroy *) eapply fill_nonholding, nonholding_dead. apply vacated_release; assumption.
  - (* AWrite *) apply write_inv, HI.
Qed.

Lemma refs_all_dead l s : Forall (fun a => live a = false) l -> refs l s = 0.
Proof. induction 1 as [|a t Ha _ IH]; simpl; [reflexivity|]. rewrite IH, (nonholding_notlive a Ha s). reflexivity. Qed.
Lemma unfreed_zero l : Forall (fun o => freed o = true) l -> unfreed l = 0.
Proof. induction 1 as [|o t Ho _ IH]; simpl; [reflexivity|]. rewrite IH, Ho. reflexivity. Qed.
Theorem no_leak st : Inv st -> (forall i, (i < length (arrs st))%nat -> live (get_arr st i) = false) -> created st = deleted st.
Proof.
  intros HI Hdead. pose proof (inv_cnt st HI) as Hc. rewrite unfreed_zero in Hc; [lia|].
  apply Forall_forall. intros o Ho. destruct (In_nth _ _ dsto Ho) as (s & Hs & <-).
  destruct (inv_sto st HI s Hs) as [Ha _]. destruct (freed (nth s (stos st) dsto)) eqn:E; [reflexivity|].
  destruct (Ha eq_refl) as [Hl Hge]. rewrite refs_all_dead in Hl; [lia|].
  apply Forall_forall. intros a Hin. destruct (In_nth _ _ dead_arr Hin) as (i & Hi & <-). exact (Hdead i Hi).
Qed.

Theorem owner_data_alive st i s : Inv st -> (i < length (arrs st))%nat ->
  live (get_arr st i) = true -> owns (get_arr st i) = true -> plc (get_arr st i) = PSto s ->
  (s < length (stos st))%nat /\ freed (get_sto st s) = false /\ links (get_sto st s) = refs (arrs st) s /\ 1 <= links (get_sto st s).
Proof.
  intros HI Hi Hl Ho Hp. assert (holds (get_arr st i) s = 1) as Hh by (unfold holds; rewrite Hl, Ho, Hp, Nat.eqb_refl; reflexivity).
  destruct (holder_unfreed st i s HI Hi Hh) as [Hs Hf]. split; [exact Hs|]. split; [exact Hf|].
  destruct (inv_sto st HI s Hs) as [Ha _]. apply Ha. exact Hf.
Qed.

Definition is_assignment (o : aop) (i : nat) : bool :=
  match o with
  | AAssign i' _ | AMoveOwn i' _ _ | AMoveExt i' _ | AMoveSlice i' _ _ _ => Nat.eqb i i'
  | _ => false
  end.
Lemma get_arr_write st a vs j : get_arr (write_cells st a vs) j = get_arr st j.
Proof. unfold write_cells, get_arr. destruct (plc a); reflexivity. Qed.
Lemma stos_length_write st a vs : length (stos (write_cells st a vs)) = length (stos st).
Proof. unfold write_cells. destruct (plc a); simpl; try reflexivity. apply length_set_nth. Qed.
Lemma copy_into_place st i vals : (i < length (arrs st))%nat ->
  plc (get_arr (copy_into st i vals) i) = plc (get_arr st i) \/
  exists s, plc (get_arr (copy_into st i vals) i) = PSto s /\ (length (stos st) <= s)%nat.
Proof.
  intros Hi. unfold copy_into.
  destruct (plc (get_arr st i)) eqn:Ep; [|left; destruct (Nat.eqb _ _); [rewrite get_arr_write|]; exact Ep..].
  destruct (Nat.eqb (length vals) 0); [left; rewrite Ep; reflexivity|]. right. exists (length (stos st)).
  unfold new_sto. rewrite get_arr_write. rewrite get_put_same by (simpl; exact Hi). split; [reflexivity|lia].
Qed.
Lemma stos_length_release st i : length (stos (release st i)) = length (stos st).
Proof. rewrite release_holder. destruct (holder _) as [s|]; [|reflexivity].
  unfold remove_link. destruct (freed _); [reflexivity|]. destruct (_ =? 0); apply length_set_nth. Qed.
