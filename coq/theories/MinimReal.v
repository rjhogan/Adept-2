(* the boolean comparisons of RO decide the order of R; hence the order facts assumed by MinimProofs.v hold for the real numbers *)
From Coq Require Import Bool Reals Lra.
From Adept Require Import Scalar RealOps.
Local Open Scope R_scope.
Lemma RO_leb_spec a b : reflect (a <= b) (oleb RO a b).
Proof. cbn. unfold Rleb. destruct (Rle_dec a b); constructor; assumption. Qed.
Lemma RO_ltb_spec a b : reflect (a < b) (oltb RO a b).
Proof. cbn. unfold Rltb. destruct (Rlt_dec a b); constructor; assumption. Qed.
(* the two readings of a reflected test as an equation to rewrite with (on a large goal that is cheaper than a case split) *)
Lemma reflect_true P b : reflect P b -> P -> b = true.
Proof. intros [_|N] H; [reflexivity|destruct (N H)]. Qed.
Lemma reflect_false P b : reflect P b -> ~ P -> b = false.
Proof. intros [H|_] N; [destruct (N H)|reflexivity]. Qed.
Lemma RO_le_total : forall a b : R, oleb RO a b = true \/ oleb RO b a = true.
Proof. intros a b. destruct (RO_leb_spec a b); [left; reflexivity|]. destruct (RO_leb_spec b a); [right; reflexivity|lra]. Qed.
Lemma RO_le_trans : forall a b c : R, oleb RO a b = true -> oleb RO b c = true -> oleb RO a c = true.
Proof. intros a b c. destruct (RO_leb_spec a b); [|discriminate]. destruct (RO_leb_spec b c); [|discriminate]. destruct (RO_leb_spec a c); [reflexivity|lra]. Qed.
Lemma RO_lt_le : forall a b : R, oltb RO a b = negb (oleb RO b a).
Proof. intros a b. destruct (RO_ltb_spec a b); destruct (RO_leb_spec b a); try reflexivity; lra. Qed.
