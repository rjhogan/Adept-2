(* C18: the L-BFGS drivers, with the guarantees and the lemmas of the conjugate-gradient drivers; the two-loop recursion and
   the stored differences do not matter for them: whatever direction they produce, only clamped points are evaluated. *)
From Coq Require Import List ZArith Lia.
From Adept Require Import ListProofs Scalar Minim MinimCG MinimDriverProofs MinimCGProofs MinimLBFGS.
Local Open Scope Z_scope.

Section MinimLBFGSProofs.
Context {T : Type} (O : Ops T).
Variable cost : list T -> T.
Variable grad : list T -> list T.
Variable norm2 : list T -> T.
Variable osqrt : T -> T.
Variable isfinite : T -> bool.
Variable ofz : Z -> T.
Hypothesis le_total : forall a b, oleb O a b = true \/ oleb O b a = true.
Hypothesis lt_le : forall a b, oltb O a b = negb (oleb O b a).

Definition linv good s (q : lb_state (T:=T)) : Prop := dinv cost good s (b_x q) (b_log q) (b_it q) (b_utd q) (b_cost q).

Section Bounded.
Variables lo hi : list T.
Hypothesis Hbox : box_le O lo hi.
Variable k : consts (T:=T).
Hypothesis free_ok : free_search_ok O norm2 lo hi k.
Notation inbox := (inbox O lo hi).
Notation ev_ok := (Forall (fun e : event (T:=T) => inbox (ev_state e))).
Notation bpost := (dpost cost inbox).
Notation binv := (linv inbox).

Lemma lb_after_ls_spec s q2 bs1 g last_restart inear itype d log1 gn o :
  post cost inbox o -> ev_ok log1 -> 0 <= b_it q2 -> (0 < g_max_it s -> b_it q2 < g_max_it s) ->
  step_ok (bpost s) (binv s) (lb_after_ls O cost s k lo hi q2 bs1 g last_restart inear itype d log1 gn o).
Proof.
  intros Ho Hl1 Hit Hmax. cbv beta delta [lb_after_ls].
  (* named before the lets are expanded: this test is behind every value of the stage, twelve branches at each place *)
  set (reached := match ls_status o with MBoundReached => true | _ => false end). cbv zeta.
  refine (step_ok_quad _ _ _ _ _); intros x4 bs4 anyhit anychg Esn.
  (* taken apart in the two small goals at the end, as in cg_after_ls_spec *)
  pose proof (placed_ok O cost le_total lo hi Hbox k o _ _ (0 <? itype) _ log1 x4 bs4 anyhit anychg Ho Hl1 Esn) as Hp.
  apply (continue_or_finish cost inbox s (binv s) (fun st => lb_finish cost s st _)); destruct Hp as (Hx4 & Hc4 & Hl3).
  - intros st. apply finish_post; cbn; auto; lia.
  - intros Hm. apply dinv_next; assumption.
Qed.

Lemma lb_search_spec ls q2 bs1 g cf gn last_restart log1 : inbox (b_x q2) -> cf = cost (b_x q2) -> ev_ok log1 -> 0 <= b_it q2 ->
  (0 < g_max_it (lb_cg ls) -> b_it q2 < g_max_it (lb_cg ls)) ->
  step_ok (bpost (lb_cg ls)) (binv (lb_cg ls)) (lb_search O cost grad norm2 osqrt isfinite ofz ls k lo hi q2 bs1 g cf gn last_restart log1).
Proof.
  intros Hx Hcf Hl1 Hit Hmax. unfold lb_search.
  match goal with |- context [let '(d2, dir) := ?p in _] => destruct p as [d2 dir] end.
  destruct (nearest_bound O k (norm2 dir) (b_x q2) lo hi dir 0 (cbig k, -1, 0)) as [[bstep inear] itype] eqn:Enb.
  apply lb_after_ls_spec; [eapply search_post; eassumption|assumption..].
Qed.

Lemma lb_step_spec ls q : binv (lb_cg ls) q -> step_ok (bpost (lb_cg ls)) (binv (lb_cg ls)) (lb_step O cost grad norm2 osqrt isfinite ofz ls k lo hi q).
Proof.
  intros (Hx & Hl & Hit & Hmax & Hc). unfold lb_step.
  (* as in cg_step_spec *)
  match goal with |- context [lb_finish _ _ MInvalidCost ?r] => set (q1 := r) end.
  match goal with |- context [isfinite ?c] => set (cf := c) end.
  assert (H1 : inbox (b_x q1) /\ ev_ok (b_log q1) /\ b_it q1 = b_it q /\ b_cost q1 = cost (b_x q1) /\ cf = cost (b_x q1)).
  { destruct (Z.ltb_spec (b_utd q) 1); cbn; repeat split; auto using Forall_snoc. }
  destruct H1 as (Hx1 & Hl1 & Hi1 & Hc1 & Hcf). clearbody q1 cf. rewrite <- Hi1 in Hit, Hmax.
  assert (Hmax' : 0 < g_max_it (lb_cg ls) -> b_it q1 <= g_max_it (lb_cg ls)) by lia.
  apply step_ok_if; [apply finish_post; assumption|].
  apply step_ok_if; [apply finish_post; assumption|].
  apply step_ok_if; [apply finish_post|apply lb_search_spec]; auto; apply Forall_snoc; assumption.
Qed.

End Bounded.

Theorem lbfgs_bounded_spec lo hi k fuel ls x m1 inf : free_search_ok O norm2 lo hi k -> valid_bounds O lo hi x = true ->
  dpost cost (inbox O lo hi) (lb_cg ls) (lbfgs_bounded O cost grad norm2 osqrt isfinite ofz fuel ls k lo hi x m1 inf).
Proof.
  intros Hfree Hv. pose proof (valid_bounds_box_le O le_total lo hi x Hv) as Hbox. unfold lbfgs_bounded. rewrite Hv. cbn [negb].
  eapply (fuel_loop (fun f q => lb_loop O cost grad norm2 osqrt isfinite ofz f ls k lo hi q) _ _ (linv (inbox O lo hi) (lb_cg ls)) (dpost cost (inbox O lo hi) (lb_cg ls))); [reflexivity|reflexivity|..].
  - intros q. apply fuel_post.
  - apply lb_step_spec; assumption.
  - apply dinv_start, inbox_clamp; assumption.
Qed.

Notation upost := (dpost cost (fun _ => True)).
Notation uinv := (linv (fun _ => True)).
Lemma lbu_step_spec ls k q : uinv (lb_cg ls) q -> step_ok (upost (lb_cg ls)) (uinv (lb_cg ls)) (lbu_step O cost grad norm2 osqrt isfinite ofz ls k q).
Proof.
  intros (_ & _ & Hit & Hmax & Hc).
  pose proof (ev_good_all (fun _ : list T => True) (fun _ => I)) as Hlog.
  (* in one conversion from the folded form, as in cgu_step_spec *)
  match goal with |- step_ok ?P ?I ?t =>
    let b := eval cbv beta delta [lbu_step] in t in
    let b := eval cbn [b_x b_gradient b_prev_x b_prev_g b_bs b_utd b_step b_last_restart b_it b_samples b_cost b_start b_gn b_data b_log] in b in
    change (step_ok P I b) end.
  (* the state after the evaluation, whether it was needed or not: all that matters of it *)
  match goal with |- context [lb_finish _ _ MInvalidCost ?r] => set (q1 := r) end.
  assert (H1i : b_it q1 = b_it q) by (unfold q1; destruct (b_utd q <? 1); reflexivity).
  assert (H1c : b_cost q1 = cost (b_x q1)) by (unfold q1; destruct (Z.ltb_spec (b_utd q) 1); auto).
  assert (Hcf : (if b_utd q <? 1 then cost (b_x q) else b_cost q) = cost (b_x q1)) by (unfold q1; destruct (Z.ltb_spec (b_utd q) 1); auto).
  rewrite <- H1i in Hit, Hmax.
  assert (Hmax' : 0 < g_max_it (lb_cg ls) -> b_it q1 <= g_max_it (lb_cg ls)) by lia.
  do 3 (apply step_ok_if; [apply finish_post; auto|]).
  (* the direction does not matter, and of the result of the line search only the cost it leaves *)
  refine (step_ok_pair _ _ _ _ _); intros d2 dir.
  match goal with |- context [ls_x ?o'] => set (o := o') end.
  assert (Ho : post cost (fun _ => True) o) by (apply line_search_spec; auto).
  apply proj2, proj2 in Ho. clearbody o.
  apply (continue_or_finish cost (fun _ => True) (lb_cg ls) (uinv (lb_cg ls)) (fun st => lb_finish cost (lb_cg ls) st _)).
  - intros st. apply finish_post; cbn; auto; lia.
  - intros Hm. apply dinv_next; auto.
Qed.
Theorem lbfgs_unbounded_spec fuel ls k x m1 inf : upost (lb_cg ls) (lbfgs_unbounded O cost grad norm2 osqrt isfinite ofz fuel ls k x m1 inf).
Proof.
  unfold lbfgs_unbounded.
  eapply (fuel_loop (fun f q => lbu_loop O cost grad norm2 osqrt isfinite ofz f ls k q) _ _ (uinv (lb_cg ls)) (upost (lb_cg ls))); [reflexivity|reflexivity|..].
  - intros q. apply fuel_post.
  - apply lbu_step_spec.
  - exact (dinv_start _ _ _ _ _ I).
Qed.
End MinimLBFGSProofs.
