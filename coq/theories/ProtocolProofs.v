(* What C10 and C11 rest on, about the machine of Protocol.v: the invariants of its reachable states, the replay theorem
   (a pass after clear_gradients and seeds leaves no residue of earlier passes), and the simulation [sim] between states
   that differ only in what no observation reads. *)
From Coq Require Import List Arith Bool Lia.
From Adept Require Import ListProofs Scalar Tape Protocol.
Import ListNotations.
Local Arguments Nat.ltb : simpl never.

Section ProtocolProofs.
Context {T : Type} (O : Ops T).
Notation pstate := (@pstate T). Notation pop := (@pop T). Notation wf_stmt := (@wf_stmt T).
Notation pstep := (pstep O). Notation prun := (prun O).

Definition agree (n : nat) (g g' : nat -> T) : Prop := forall i, i < n -> g i = g' i.
Lemma agree_refl n g : agree n g g. Proof. intros i _. reflexivity. Qed.
Lemma agree_upd n g g' j x : agree n g g' -> agree n (upd g j x) (upd g' j x).
Proof. intros H i Hi. unfold upd. destruct (Nat.eqb i j); [reflexivity|apply H; exact Hi]. Qed.

Lemma rhs_val_agree n o g g' : Forall (fun mi => snd mi < n) o -> agree n g g' -> rhs_val O o g = rhs_val O o g'.
Proof.
  intros Hw Ha. unfold rhs_val. generalize (o0 O). induction Hw as [|mi o H1 _ IH]; intros a; cbn [fold_left]; [reflexivity|].
  rewrite (Ha _ H1). apply IH.
Qed.
Lemma fwd1_agree n s g g' : wf_stmt n s -> agree n g g' -> agree n (fwd1 O s g) (fwd1 O s g').
Proof. intros [Hl Ho] Ha. unfold fwd1. rewrite (rhs_val_agree n _ g g' Ho Ha). apply agree_upd. exact Ha. Qed.
Lemma fwd_agree n t : Forall (wf_stmt n) t -> forall g g', agree n g g' -> agree n (fwd_sweep O t g) (fwd_sweep O t g').
Proof.
  intros Hw. induction Hw as [|s t H1 _ IH]; intros g g' Ha; [exact Ha|].
  cbn [fwd_sweep fold_left]. apply IH, fwd1_agree; assumption.
Qed.
Lemma scatter_agree n a o : forall g g', agree n g g' -> agree n (scatter O a o g) (scatter O a o g').
Proof.
  induction o as [|mi o IH]; intros g g' Ha; [exact Ha|]. cbn [scatter fold_left].
  apply IH. intros i Hi. unfold upd. destruct (Nat.eqb_spec i (snd mi)) as [->|_]; [|apply Ha; exact Hi].
  rewrite (Ha _ Hi). reflexivity.
Qed.
Lemma rev1_agree n s g g' : wf_stmt n s -> agree n g g' -> agree n (rev1 O s g) (rev1 O s g').
Proof.
  intros [Hl _] Ha. unfold rev1. rewrite (Ha _ Hl). destruct (oeqb O (g' (lhs s)) (o0 O)).
  - apply agree_upd. exact Ha.
  - apply scatter_agree. apply agree_upd. exact Ha.
Qed.
Lemma rev_agree n t : Forall (wf_stmt n) t -> forall g g', agree n g g' -> agree n (rev_sweep O t g) (rev_sweep O t g').
Proof.
  intros Hw. induction Hw as [|s t H1 _ IH]; intros g g' Ha; [exact Ha|].
  cbn [rev_sweep fold_right]. apply rev1_agree, IH; assumption.
Qed.

(* The machine read field by field: [pstep] says what an operation does to the state, [pfields] what becomes of each
   field under every operation.  The bisimulation, NInv, CapInv and ProtocolStack.v read the state through it. *)
Definition pfields (st : pstate) (o : pop) : pstate :=
  let sd := if init st then st else initialize O st in      (* the state a seed acts on *)
  let appends ops := recording st && forallb (fun mi => Nat.ltb (snd mi) (ngrad st)) ops in
  mkP
    (match o with
     | ORecord s => if recording st && stmt_lt (ngrad st) s then tp st ++ [s] else tp st
     | ONewRecording _ => []
     | OAddDep l ops => let s := mkStmt l (drop_zeros O ops) in if recording st && stmt_lt (ngrad st) s then tp st ++ [s] else tp st
     | OAppendDep l ops => if appends ops then match append_last (tp st) l (drop_zeros O ops) with Some t => t | None => tp st end else tp st
     | _ => tp st end)
    (match o with
     | OSeed i x => if Nat.ltb i (ninit sd) then upd (buf sd) i x else buf sd
     | OForward => if init st then fwd_sweep O (tp st) (buf (extend O st)) else buf st
     | OReverse => if init st then rev_sweep O (tp st) (buf (extend O st)) else buf st
     | _ => buf st end)
    (match o with ONewRecording _ | OClearGradients => false | OSeed _ _ => true | _ => init st end)
    (match o with ORegister k => if recording st then Nat.max (ngrad st) k else ngrad st | ONewRecording ig => S ig | _ => ngrad st end)
    (match o with OSeed _ _ => ninit sd | _ => ninit st end)
    (match o with OSeed _ _ => nalloc sd | OForward | OReverse => if init st then Nat.max (nalloc st) (ngrad st) else nalloc st | _ => nalloc st end)
    (match o with ONewRecording _ | OClearIndependents => [] | OIndependent i => indep st ++ [i] | _ => indep st end)
    (match o with ONewRecording _ | OClearDependents => [] | ODependent i => dep st ++ [i] | _ => dep st end)
    (match o with OPause => false | OContinue => true | _ => recording st end)
    (match o with
     | OSeed i _ => if Nat.ltb i (ninit sd) then errs st else ERange :: errs st
     | OForward | OReverse => if init st then errs st else ENotInit :: errs st
     | OAppendDep l ops => if appends ops then match append_last (tp st) l (drop_zeros O ops) with Some _ => errs st | None => EWrongGradient :: errs st end
                           else errs st
     | _ => errs st end)
    (match o with
     | OSeed i _ => if Nat.ltb i (ninit sd) && negb (Nat.ltb i (nalloc sd)) then S (oob st) else oob st
     | OForward | OReverse => if init st then sweep_oob (extend O st) else oob st
     | _ => oob st end).
Lemma pstep_fields st o : pstep st o = pfields st o.
Proof.
  destruct st as [t b ini n ni na xi xd r e ob]. unfold pfields. destruct o; cbn; try reflexivity.
  - destruct (r && stmt_lt n s); reflexivity.
  - destruct r; reflexivity.
  - destruct ini; cbn; (destruct (Nat.ltb i _); [destruct (Nat.ltb i _)|]); reflexivity.
  - destruct ini; reflexivity.
  - destruct ini; reflexivity.
  - destruct (r && stmt_lt n _); reflexivity.
  - destruct (r && forallb _ ops); [destruct (append_last t l _)|]; reflexivity.
Qed.

(* every recorded index is below max_gradient *)
Definition PInv (st : pstate) : Prop := Forall (wf_stmt (ngrad st)) (tp st).
Lemma forallb_lt n (o : list (T * nat)) : forallb (fun mi => Nat.ltb (snd mi) n) o = true -> Forall (fun mi => snd mi < n) o.
Proof. rewrite forallb_forall. intros H. apply Forall_forall. intros mi Hin. apply Nat.ltb_lt, H, Hin. Qed.
Lemma stmt_lt_wf n s : stmt_lt n s = true -> wf_stmt n s.
Proof. unfold stmt_lt. intros H. apply andb_true_iff in H. destruct H as [H1 H2]. split; [apply Nat.ltb_lt, H1|apply forallb_lt, H2]. Qed.
Lemma wf_mono n m s : n <= m -> wf_stmt n s -> wf_stmt m s.
Proof. intros Hn [H1 H2]. split; [lia|]. eapply Forall_impl; [|exact H2]. cbn. lia. Qed.
Lemma append_last_wf n t l ops t' : Forall (wf_stmt n) t -> Forall (fun mi => snd mi < n) ops -> append_last t l ops = Some t' -> Forall (wf_stmt n) t'.
Proof.
  intros Hw Ho. revert t'. induction Hw as [|s t H1 _ IH]; intros t' H; [discriminate|].
  cbn [append_last] in H. destruct t as [|s2 t2].
  - destruct (Nat.eqb_spec (lhs s) l) as [E|NE]; [|discriminate]. inversion H; subst. constructor; [|constructor].
    destruct H1 as [Hl Hr]. split; [exact Hl|]. apply Forall_app. split; assumption.
  - destruct (append_last (s2 :: t2) l ops) as [t''|]; [|discriminate]. inversion H. constructor; [exact H1|]. apply IH. reflexivity.
Qed.
Lemma drop_zeros_lt n ops : Forall (fun mi : T * nat => snd mi < n) ops -> Forall (fun mi => snd mi < n) (drop_zeros O ops).
Proof. apply incl_Forall, incl_filter. Qed.
Lemma wf_record n t s (c : bool) : Forall (wf_stmt n) t -> Forall (wf_stmt n) (if c && stmt_lt n s then t ++ [s] else t).
Proof.
  intros H. destruct (c && stmt_lt n s) eqn:E; [|exact H]. apply andb_true_iff in E.
  apply Forall_snoc; [exact H|apply stmt_lt_wf, E].
Qed.
Lemma pstep_inv st o : PInv st -> PInv (pstep st o).
Proof.
  unfold PInv. rewrite pstep_fields. cbn [pfields tp ngrad]. intros H. destruct o; try exact H.
  - apply wf_record, H.
  - destruct (recording st); [|exact H]. eapply Forall_impl; [|exact H]. intros s. apply wf_mono. lia.
  - constructor.
  - apply wf_record, H.
  - destruct (recording st && forallb _ ops) eqn:E; [|exact H]. apply andb_true_iff in E.
    destruct (append_last (tp st) l (drop_zeros O ops)) as [t|] eqn:Ea; [|exact H].
    eapply append_last_wf; [exact H|apply drop_zeros_lt, forallb_lt, E|exact Ea].
Qed.
Lemma prun_preserves (P : pstate -> Prop) : (forall st o, P st -> P (pstep st o)) -> forall ops st, P st -> P (prun ops st).
Proof. exact (fold_left_inv P pstep). Qed.

(* what the seeds of a pass maintain: an initialised list of n entries over the tape t, holding g below n *)
Definition seeded n (t : tape) (g : nat -> T) (st : pstate) : Prop :=
  init st = true /\ ngrad st = n /\ ninit st = n /\ tp st = t /\ agree n (buf st) g.
Lemma seeds_run n t seeds : forall st g, seeded n t g st ->
  seeded n t (fold_left (fun g ix => if Nat.ltb (fst ix) n then upd g (fst ix) (snd ix) else g) seeds g)
         (prun (map (fun ix => OSeed (fst ix) (snd ix)) seeds) st).
Proof.
  induction seeds as [|[i x] seeds IH]; intros st g H; [exact H|]. apply IH.
  destruct H as (Hi & Hn & Hni & Ht & Ha). cbn [pstep fst snd]. rewrite Hi, Hni.
  destruct (Nat.ltb i n); repeat split; try assumption. apply agree_upd, Ha.
Qed.

Definition pass_ops (seeds : list (nat * T)) (pass : pop) : list pop :=
  OClearGradients :: map (fun ix => OSeed (fst ix) (snd ix)) seeds ++ [pass].

Lemma extend_nothing (st : pstate) i : ninit st = ngrad st -> buf (extend O st) i = buf st i.
Proof.
  intros H. cbn [extend buf]. rewrite H. destruct (Nat.leb_spec (ngrad st) i); destruct (Nat.ltb_spec i (ngrad st)); try reflexivity. lia.
Qed.
(* a pass over a seeded list: the extension before the sweep changes nothing below n *)
Lemma pass_seeded n t g st : Forall (wf_stmt n) t -> seeded n t g st ->
  agree n (buf (pstep st OForward)) (fwd_sweep O t g) /\ agree n (buf (pstep st OReverse)) (rev_sweep O t g) /\
  tp (pstep st OForward) = t /\ tp (pstep st OReverse) = t.
Proof.
  intros Hw (Hi & Hn & Hni & Ht & Ha).
  assert (agree n (buf (extend O st)) g) as He. { intros i Hi'. rewrite extend_nothing by congruence. apply Ha, Hi'. }
  cbn [pstep]. rewrite Hi. cbn [buf tp extend]. rewrite Ht.
  repeat split; [apply fwd_agree|apply rev_agree]; assumption.
Qed.
Theorem replay st i0 x0 seeds : PInv st ->
  let n := ngrad st in let sv := seedvec O n ((i0, x0) :: seeds) in
  agree n (buf (prun (pass_ops ((i0, x0) :: seeds) OForward) st)) (fwd_sweep O (tp st) sv) /\
  agree n (buf (prun (pass_ops ((i0, x0) :: seeds) OReverse) st)) (rev_sweep O (tp st) sv) /\
  tp (prun (pass_ops ((i0, x0) :: seeds) OForward) st) = tp st /\ tp (prun (pass_ops ((i0, x0) :: seeds) OReverse) st) = tp st.
Proof.
  intros Hinv n sv. unfold pass_ops, prun. cbn [fold_left map]. rewrite !fold_left_app. cbn [fold_left].
  (* the first seed initialises: on the cleared list it acts as on [initialize] of it (the two are convertible), so all seeds
     act on an initialised list whose first n entries are zero *)
  apply (pass_seeded n (tp st) sv); [exact Hinv|].
  apply (seeds_run n (tp st) ((i0, x0) :: seeds) (initialize O (pstep st OClearGradients)) (fun _ => o0 O)).
  repeat split. intros i Hi. cbn. apply Nat.ltb_lt in Hi. fold n. rewrite Hi. reflexivity.
Qed.

(* the only store that can miss the list is a seed below the initialised length but beyond the allocation;
   a sweep comes after the extension, which makes the list long enough *)
Lemma sweep_oob_extend st : sweep_oob (extend O st) = oob st.
Proof. unfold sweep_oob. cbn [extend ngrad nalloc oob]. destruct (Nat.leb_spec (ngrad st) (Nat.max (nalloc st) (ngrad st))); [reflexivity|lia]. Qed.
Lemma oob_pstep st o : (init st = true -> ninit st <= nalloc st) -> oob (pstep st o) = oob st.
Proof.
  intros H. rewrite pstep_fields. destruct o; try reflexivity; cbn [pfields oob]; destruct (init st); try reflexivity.
  - destruct (Nat.ltb_spec i (ninit st)), (Nat.ltb_spec i (nalloc st)); try reflexivity. lia.
  - cbn [initialize ninit nalloc]. destruct (Nat.ltb_spec i (ngrad st)), (Nat.ltb_spec i (Nat.max (nalloc st) (ngrad st))); try reflexivity. lia.
  - apply sweep_oob_extend.
  - apply sweep_oob_extend.
Qed.

(* observational equivalence: states that differ only in stale buffer contents, allocation and error counts.  The buffers
   are compared below the initialised length, which is all that [obs_gradient] reads; a sweep needs them equal below
   max_gradient, and gets that from the extension before it, which zeroes what lies between ([extend_covers]) *)
Definition sim (a b : pstate) : Prop :=
  tp a = tp b /\ init a = init b /\ ngrad a = ngrad b /\ indep a = indep b /\ dep a = dep b /\ recording a = recording b /\
  (init a = true -> ninit a = ninit b /\ agree (ninit a) (buf a) (buf b)).
Lemma extend_sim_agree a b : ngrad a = ngrad b -> ninit a = ninit b -> agree (ngrad a) (buf a) (buf b) ->
  agree (ngrad a) (buf (extend O a)) (buf (extend O b)).
Proof.
  intros Hn Hni Hag j Hj. cbn [extend buf]. rewrite <- Hn, <- Hni.
  destruct (Nat.leb (ninit a) j && Nat.ltb j (ngrad a)); [reflexivity|apply Hag; exact Hj].
Qed.
Lemma extend_covers a b : ngrad a = ngrad b -> ninit a = ninit b -> agree (ninit a) (buf a) (buf b) ->
  agree (ngrad a) (buf (extend O a)) (buf (extend O b)).
Proof.
  intros Hn Hni Hag j Hj. cbn [extend buf]. rewrite <- Hn, <- Hni.
  destruct (Nat.leb_spec (ninit a) j); [|apply Hag; assumption]. apply Nat.ltb_lt in Hj. rewrite Hj. reflexivity.
Qed.
Definition NInv (st : pstate) : Prop := init st = true -> ninit st <= ngrad st.
Lemma pstep_ninv st o : NInv st -> NInv (pstep st o).
Proof. unfold NInv. rewrite pstep_fields. cbn [pfields init ninit ngrad]. intros H. destruct o; try exact H; try discriminate.
  - destruct (recording st); [|exact H]. intros Hi. specialize (H Hi). lia.
  - destruct (init st); intros _; [apply H; reflexivity|apply Nat.le_refl].
Qed.

Lemma sim_step a b o : PInv a -> NInv a -> sim a b -> sim (pstep a o) (pstep b o).
Proof.
  intros Hinv Hle (Ht & Hi & Hn & Hx & Hd & Hr & Hb). unfold sim.
  rewrite !pstep_fields. cbn [pfields tp init ngrad indep dep recording ninit buf]. rewrite <- Ht, <- Hi, <- Hn, <- Hx, <- Hd, <- Hr.
  repeat (split; [reflexivity|]).
  (* what is left is the clause on the initialised part of the buffer *)
  destruct o; try exact Hb; try discriminate.
  - intros _. set (sa := if init a then a else initialize O a). set (sb := if init a then b else initialize O b).
    assert (ninit sa = ninit sb /\ agree (ninit sa) (buf sa) (buf sb)) as [Hni Hag].
    { unfold sa, sb. destruct (init a); [exact (Hb eq_refl)|]. cbn [initialize ninit buf]. rewrite <- Hn. split; [reflexivity|].
      intros j Hj. apply Nat.ltb_lt in Hj. rewrite Hj. reflexivity. }
    rewrite <- Hni. split; [reflexivity|]. destruct (Nat.ltb i (ninit sa)); [apply agree_upd|]; exact Hag.
  - intros Hi'. destruct (Hb Hi') as [Hni Hag]. specialize (Hle Hi'). rewrite Hi'. split; [exact Hni|].
    intros j Hj. apply (fwd_agree (ngrad a)); [exact Hinv|apply extend_covers; assumption|lia].
  - intros Hi'. destruct (Hb Hi') as [Hni Hag]. specialize (Hle Hi'). rewrite Hi'. split; [exact Hni|].
    intros j Hj. apply (rev_agree (ngrad a)); [exact Hinv|apply extend_covers; assumption|lia].
Qed.

Lemma sim_run ops : forall a b, PInv a -> NInv a -> sim a b -> sim (prun ops a) (prun ops b).
Proof.
  induction ops as [|o ops IH]; intros a b Hinv Hle Hs; [exact Hs|]. cbn.
  apply IH; [apply pstep_inv, Hinv|apply pstep_ninv, Hle|apply sim_step; assumption].
Qed.

Lemma sim_obs a b : sim a b -> (forall i, obs_gradient a i = obs_gradient b i) /\ obs_jacobian O a = obs_jacobian O b /\ obs_counts a = obs_counts b.
Proof.
  intros (Ht & Hi & Hn & Hx & Hd & Hr & Hb). repeat split.
  - intros i. unfold obs_gradient. rewrite <- Hi. destruct (init a); [|reflexivity]. cbn.
    destruct (Hb eq_refl) as [Hq Hag]. rewrite <- Hq. destruct (Nat.ltb_spec i (ninit a)) as [Hl|Hg]; [|reflexivity].
    rewrite (Hag i Hl). reflexivity.
  - unfold obs_jacobian. rewrite Ht, Hx, Hd. reflexivity.
  - unfold obs_counts. rewrite Ht. reflexivity.
Qed.

Lemma sim_new_recording a b ig : recording a = recording b -> sim (pstep a (ONewRecording ig)) (pstep b (ONewRecording ig)).
Proof. intros Hrec. unfold sim. cbn. repeat split; try exact Hrec; discriminate. Qed.

(* the documented protocol: active objects are not created between seeding and clear_gradients.  The simulation does not need
   it: an object created in between lies at or beyond the initialised length ([late_objects_out_of_range]), where no
   observation reads.  C10_new_recording_forgets assumes it. *)
Definition respects (st : pstate) (o : pop) : Prop := match o with ORegister _ => init st = false | _ => True end.
Fixpoint respects_all (st : pstate) (ops : list pop) : Prop :=
  match ops with [] => True | o :: r => respects st o /\ respects_all (pstep st o) r end.

Definition CapInv (st : pstate) : Prop := oob st = 0 /\ (init st = true -> ninit st <= nalloc st).
Lemma pstep_cap st o : CapInv st -> CapInv (pstep st o).
Proof. unfold CapInv. intros [H0 H]. rewrite oob_pstep by exact H. split; [exact H0|].
  rewrite pstep_fields. cbn [pfields init ninit nalloc]. destruct o; try exact H; try discriminate.
  - intros _. destruct (init st); [exact (H eq_refl)|apply Nat.le_max_r].
  - intros Hi. rewrite Hi. specialize (H Hi). lia.
  - intros Hi. rewrite Hi. specialize (H Hi). lia.
Qed.
Lemma reachable_cap_inv ops : CapInv (prun ops (pinit O)).
Proof. apply (prun_preserves _ pstep_cap). split; [reflexivity|intros Hf; discriminate]. Qed.
(* objects created after the gradients were initialised have indices at or beyond the initialised length *)
Theorem late_objects_out_of_range st k : NInv st -> init st = true -> recording st = true ->
  ninit (pstep st (ORegister k)) <= ngrad st /\ ngrad (pstep st (ORegister k)) = Nat.max (ngrad st) k.
Proof. intros H Hi Hr. cbn [pstep]. rewrite Hr. split; [apply H, Hi|reflexivity]. Qed.
End ProtocolProofs.

