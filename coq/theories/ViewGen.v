(* Array::operator()(i0,...,ik) as tools/gen_slice.py reads it from Array.h on every run (the two update_index helpers,
   the rank-1 ranged operator, the skeleton of the multi-argument overloads), re-assembled and proved to be the model's
   [slice] (View.v) for every view and every index list; then diag_vector, submatrix_on_diagonal, T, reshape and
   operator[] from the same run, each against the model's function. *)
From Coq Require Import ZArith List Lia.
From Adept Require Import ListProofs View.
From AdeptGen Require Import Gen_Slice.
Import ListNotations.
Local Open Scope Z_scope.

(* update_index applied to the arguments in order; ib is the C++ ibegin *)
Fixpoint gen_slice_go (l : list ix) (ds ss : list Z) (ib : Z) : Z * list Z * list Z :=
  match l, ds, ss with
  | IS i :: l', d :: ds', s :: ss' => gen_slice_go l' ds' ss' (sl_scalar_begin ib (res d i) s)
  | IR bb ee st :: l', d :: ds', s :: ss' =>
      let '(ib', nd, ns) := gen_slice_go l' ds' ss' (sl_range_begin ib (res d bb) (res d ee) st s) in
      (ib', sl_range_dim (res d bb) (res d ee) st s :: nd, sl_range_stride (res d bb) (res d ee) st s :: ns)
  | _, _, _ => (ib, [], [])
  end.
Definition gen_slice (v : view) (l : list ix) : view :=
  let '(ib, nd, ns) := gen_slice_go l (dims v) (strides v) sl_start in mkView (base v + ib) nd ns.
(* the rank-1 ranged operator() *)
Definition gen_slice1 (b0 d s : Z) (bb ee : iv) (st : Z) : view :=
  mkView (b0 + sl1_begin (res d bb) (res d ee) st s) [sl1_dim (res d bb) (res d ee) st s] [sl1_stride (res d bb) (res d ee) st s].

Lemma gen_slice_go_eq : forall l ds ss ib b0,
  slice_go l ds ss (b0 + ib) = let '(ib', nd, ns) := gen_slice_go l ds ss ib in (b0 + ib', nd, ns).
Proof.
  induction l as [|x l IH]; intros ds ss ib b0; [reflexivity|].
  destruct x as [i|bb ee st]; destruct ds as [|d ds]; try reflexivity; destruct ss as [|s ss]; try reflexivity;
    cbn [slice_go gen_slice_go].
  - unfold sl_scalar_begin. rewrite <- Z.add_assoc. apply IH.
  - unfold sl_range_begin, sl_range_dim, sl_range_stride. rewrite <- Z.add_assoc. rewrite IH.
    destruct (gen_slice_go l ds ss (ib + res d bb * s)) as [[ib' nd] ns]. reflexivity.
Qed.

Lemma gen_slice_eq : forall v l, gen_slice v l = slice v l.
Proof.
  intros v l. unfold gen_slice, slice, sl_start.
  pose proof (gen_slice_go_eq l (dims v) (strides v) 0 (base v)) as H. rewrite Z.add_0_r in H. rewrite H.
  destruct (gen_slice_go l (dims v) (strides v) 0) as [[ib nd] ns]. reflexivity.
Qed.

Definition gen_diag_vector (v : view) (k : Z) : view :=
  match dims v, strides v with
  | [d0; d1], [s0; s1] =>
      if dg_first_branch k then mkView (dgp_base (base v) d0 d1 s0 s1 k) [dgp_dim (base v) d0 d1 s0 s1 k] [dgp_stride (base v) d0 d1 s0 s1 k]
      else mkView (dgn_base (base v) d0 d1 s0 s1 k) [dgn_dim (base v) d0 d1 s0 s1 k] [dgn_stride (base v) d0 d1 s0 s1 k]
  | _, _ => v
  end.
Definition gen_submatrix_on_diagonal (v : view) (ib ie : Z) : view :=
  match dims v, strides v with
  | [d0; d1], [s0; s1] => mkView (sd_base (base v) s0 s1 ib ie) [sd_len ib ie; sd_len ib ie] [s0; s1]
  | _, _ => v
  end.

Lemma gen_diag_vector_eq : forall v k, gen_diag_vector v k = diag_vector v k.
Proof.
  intros v k. unfold gen_diag_vector, diag_vector.
  (* the matrix case is left by position, not by [try reflexivity]: a test written as the model's makes it convertible too *)
  destruct (dims v) as [|d0 [|d1 [|? ?]]]; [reflexivity..| |reflexivity].
  destruct (strides v) as [|s0 [|s1 [|? ?]]]; [reflexivity..| |reflexivity].
  (* from what the branches compute, not from the syntax of the test: one that differs from the model's only at
     offdiag = 0, where the two branches build the same view, still passes *)
  apply if_either. unfold dg_first_branch.
  destruct (Z.eq_dec k 0) as [->|Hk]; [right|left; lia].
  rewrite !Z.mul_0_r, !Z.add_0_r, !Z.sub_0_r. reflexivity.
Qed.
(* T() of a matrix (a link to *this, then in_place_transpose()) and reshape(dims) of a vector; these two, gen_slice1,
   gen_submatrix_on_diagonal and gen_index0 unfold to the model's functions: the C06 theorems about them are closed by conversion *)
Definition gen_transpose (v : view) : view :=
  match dims v, strides v with
  | [d0; d1], [s0; s1] => mkView (base v) [tr_d0 d0 d1 s0 s1; tr_d1 d0 d1 s0 s1] [tr_s0 d0 d1 s0 s1; tr_s1 d0 d1 s0 s1]
  | _, _ => v
  end.
Fixpoint gen_reshape_strides (nd : list Z) (s0 : Z) : list Z :=
  match nd with
  | [] => []
  | [d] => [rs_last s0]
  | d :: (d' :: _) as rest =>
      match gen_reshape_strides rest s0 with
      | s' :: ss => rs_step d' s' :: s' :: ss
      | [] => []
      end
  end.
Definition gen_reshape (v : view) (nd : list Z) : view :=
  match strides v with
  | [s0] => mkView (base v) nd (gen_reshape_strides nd s0)
  | _ => v
  end.

(* operator[](i) on rank > 1 *)
Definition gen_index0 (v : view) (i : iv) : view :=
  match dims v, strides v with
  | d :: ds, s :: ss => mkView (base v + ix_offset (res d i) s) ds ss
  | _, _ => v
  end.
