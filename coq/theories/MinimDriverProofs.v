(* C18: what the four line-search drivers (conjugate gradient and L-BFGS, bounded and unbounded) share.
   Each is a loop on fuel around a step that returns the final result or the next state; each exit of a step goes through
   cg_refresh ([finish_post]), running out of fuel returns the state as it stands ([fuel_post]); each step ends with the same choice between going on and finishing.  [good] is the box for the bounded
   drivers and [fun _ => True] for the unbounded ones. *)
From Coq Require Import List ZArith Lia.
From Adept Require Import ListProofs Minim MinimCG.
Import ListNotations.
Local Open Scope Z_scope.

Definition step_ok {St R} (post : R -> Prop) (inv : St -> Prop) (r : R + St) : Prop := match r with inl r => post r | inr q => inv q end.
(* a test of the step function whose outcome does not matter, and a pair of which only the components are used: the
   branches, and what follows, are dealt with as they stand ([destruct] would search a large goal for the test or the pair) *)
Lemma step_ok_if {St R} (post : R -> Prop) (inv : St -> Prop) (c : bool) (a b : R + St) :
  step_ok post inv a -> step_ok post inv b -> step_ok post inv (if c then a else b).
Proof. intros Ha Hb. destruct c; assumption. Qed.
Lemma step_ok_pair {St R A B} (post : R -> Prop) (inv : St -> Prop) (p : A * B) (f : A -> B -> R + St) :
  (forall a b, step_ok post inv (f a b)) -> step_ok post inv (let '(a, b) := p in f a b).
Proof. intros H. destruct p. apply H. Qed.
(* likewise for a quadruple, with the equation that says where its components come from *)
Lemma step_ok_quad {St R A B C D} (post : R -> Prop) (inv : St -> Prop) (p : A * B * C * D) (f : A -> B -> C -> D -> R + St) :
  (forall a b c d, p = (a, b, c, d) -> step_ok post inv (f a b c d)) -> step_ok post inv (let '(a, b, c, d) := p in f a b c d).
Proof. intros H. destruct p as [[[a b] c] d]. apply H. reflexivity. Qed.
Lemma fuel_loop {St R} (loop : nat -> St -> R) (step : St -> R + St) (out : St -> R) (inv : St -> Prop) (post : R -> Prop) :
  (forall q, loop 0%nat q = out q) -> (forall f q, loop (S f) q = match step q with inl r => r | inr q' => loop f q' end) ->
  (forall q, inv q -> post (out q)) -> (forall q, inv q -> step_ok post inv (step q)) ->
  forall fuel q, inv q -> post (loop fuel q).
Proof.
  intros E0 ES Hout Hstep fuel. induction fuel as [|f IH]; intros q Hq; [rewrite E0; apply Hout; exact Hq|].
  rewrite ES. specialize (Hstep q Hq). destruct (step q) as [r|q']; [exact Hstep|apply IH; exact Hstep].
Qed.

Section Driver.
Context {T : Type}.
Variable cost : list T -> T.
Variable good : list T -> Prop.
Notation ev_good := (Forall (fun e : event (T:=T) => good (ev_state e))).
Definition dpost (s : cgsettings (T:=T)) (r : result (T:=T)) : Prop :=
  ev_good (r_log r) /\ good (r_x r) /\ (r_status r <> MOutOfFuel -> r_cost r = cost (r_x r)) /\ (0 < g_max_it s -> 0 <= r_iter r <= g_max_it s).
(* the state between two iterations, by its components because cg_state and lb_state are different records *)
Definition dinv (s : cgsettings (T:=T)) (x : list T) (log : list (event (T:=T))) (it utd : Z) (c : T) : Prop :=
  good x /\ ev_good log /\ 0 <= it /\ (0 < g_max_it s -> it < g_max_it s) /\ (1 <= utd -> c = cost x).

Lemma dinv_start s x c : good x -> dinv s x [] 0 (-1) c.
Proof. intros Hx. refine (conj Hx (conj (Forall_nil _) _)). lia. Qed.
Lemma dinv_next s x log it utd c : good x -> ev_good log -> c = cost x -> 0 <= it -> it + 1 < g_max_it s -> dinv s x log (it + 1) utd c.
Proof. intros Hx Hl Hc Hi Hm. refine (conj Hx (conj Hl (conj _ (conj (fun _ => Hm) (fun _ => Hc))))). lia. Qed.

Lemma ev_good_all : (forall x, good x) -> forall l, ev_good l.
Proof. intros H l. apply Forall_forall. intros e _. apply H. Qed.
Lemma ev_states_good l : Forall good l -> ev_good (ev_states l).
Proof. intros H. apply Forall_map. exact H. Qed.

Lemma refresh_spec s utd x c0 log : good x -> ev_good log -> c0 = cost x ->
  let '(c, lg) := cg_refresh cost s utd x c0 log in c = cost x /\ ev_good lg.
Proof.
  intros Hx Hl Hc. unfold cg_refresh. destruct (utd <? g_ensure s); [|exact (conj Hc Hl)].
  destruct (0 <? g_ensure s); (split; [reflexivity|apply Forall_snoc; assumption]).
Qed.
(* every exit of a step of every driver: cg_finish and lb_finish unfold to this *)
Lemma finish_post s st utd x c0 log start gn it smp bs g :
  good x -> ev_good log -> c0 = cost x -> 0 <= it -> (0 < g_max_it s -> it <= g_max_it s) ->
  dpost s (let '(c, lg) := cg_refresh cost s utd x c0 log in mkResult st x c start gn it smp bs g lg).
Proof.
  intros Hx Hl Hc Hi1 Hi2. pose proof (refresh_spec s utd x c0 log Hx Hl Hc) as Hr.
  destruct (cg_refresh cost s utd x c0 log) as [c lg]. destruct Hr as [Ec Hlg].
  exact (conj Hlg (conj Hx (conj (fun _ => Ec) (fun Hm => conj Hi1 (Hi2 Hm))))).
Qed.
Lemma fuel_post s x c log start gn it utd smp bs g : dinv s x log it utd c -> dpost s (mkResult MOutOfFuel x c start gn it smp bs g log).
Proof. intros (Hx & Hl & Hi & Hm & _). unfold dpost; cbn. refine (conj Hl (conj Hx (conj _ _))); [intros H; contradiction H; reflexivity|intros H; specialize (Hm H); lia]. Qed.
Lemma continue_or_finish {St} (s : cgsettings (T:=T)) (inv : St -> Prop) (fin : mstatus -> result (T:=T)) (q3 : St) (status : mstatus) (it' : Z) :
  (forall st, dpost s (fin st)) -> (it' < g_max_it s -> inv q3) ->
  step_ok (dpost s) inv
    (let status' := match status with MNotYetConverged => if g_max_it s <=? it' then MMaxIterations else MNotYetConverged | _ => status end in
     match status' with MNotYetConverged => inr q3 | _ => inl (fin status') end).
Proof. intros Hfin Hinv. destruct status; try apply Hfin. destruct (Z.leb_spec (g_max_it s) it'); cbn; [apply Hfin|apply Hinv; assumption]. Qed.
Definition cinv s (q : cg_state (T:=T)) : Prop := dinv s (q_x q) (q_log q) (q_it q) (q_utd q) (q_cost q).
End Driver.
