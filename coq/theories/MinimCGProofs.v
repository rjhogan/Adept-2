(* C18: what the line search and the conjugate-gradient drivers guarantee for EVERY cost function and gradient (Section
   variables without hypotheses), start, box and setting.  As in MinimProofs.v the scalars are only assumed totally
   pre-ordered.  [inbox lo hi x] is "every component of x lies between the corresponding bounds" (the condition [within] of
   MinimProofs.v without its clause on the length, which the truncating list operations of the model make irrelevant). *)
From Coq Require Import List Bool ZArith Lia.
From Adept Require Import ListProofs Scalar Minim MinimProofs MinimCG MinimDriverProofs.
Import ListNotations.
Local Open Scope Z_scope.

Section MinimCGProofs.
Context {T : Type} (O : Ops T).
Variable cost : list T -> T.
Variable grad : list T -> list T.
Variable norm2 : list T -> T.
Variable osqrt : T -> T.
Variable isfinite : T -> bool.
Hypothesis le_total : forall a b, oleb O a b = true \/ oleb O b a = true.
Hypothesis lt_le : forall a b, oltb O a b = negb (oleb O b a).

Notation le_refl := (le_refl O le_total).
Lemma lt_irrefl a : oltb O a a = false.
Proof. rewrite lt_le, le_refl. reflexivity. Qed.

Inductive inbox : list T -> list T -> list T -> Prop :=
| inbox_nil lo hi : inbox lo hi []
| inbox_cons l h v lo hi x : oleb O l v = true -> oleb O v h = true -> inbox lo hi x -> inbox (l :: lo) (h :: hi) (v :: x).
(* over [combine], as valid_bounds tests it: like [inbox] it looks no further than the shortest list *)
Definition box_le (lo hi : list T) : Prop := Forall (fun p => oleb O (fst p) (snd p) = true) (combine lo hi).
Lemma inbox_clamp lo hi t : box_le lo hi -> inbox lo hi (clamp O lo hi t).
Proof.
  revert hi t. induction lo as [|l lo IH]; intros [|h hi] [|v t] Hb; try apply inbox_nil.
  inversion Hb as [|? ? Hlh Hb']; subst. cbn. destruct (clamp1_in O le_total lt_le l h v Hlh) as [H1 H2]. constructor; [exact H1|exact H2|apply IH; exact Hb'].
Qed.
Lemma inbox_set_nth_bound lo hi x i (up : bool) : box_le lo hi -> inbox lo hi x -> inbox lo hi (set_nth i (if up then nth i hi (o0 O) else nth i lo (o0 O)) x).
Proof.
  intros Hb Hx. revert i. induction Hx as [lo hi|l h v lo hi x H1 H2 Hx IH]; intros i; [destruct i; cbn; apply inbox_nil|].
  inversion Hb as [|? ? Hlh Hb']; subst. destruct i as [|i]; cbn.
  - destruct up; constructor; try assumption; apply le_refl.
  - constructor; [exact H1|exact H2|apply IH; exact Hb'].
Qed.

Lemma snap1_spec k l h v b : oleb O l h = true -> oleb O l v = true -> oleb O v h = true ->
  let '(v', _, _, chg) := snap1 O k l h v b in oleb O l v' = true /\ oleb O v' h = true /\ (chg = false -> v' = v).
Proof.
  intros Hlh H1 H2. unfold snap1. destruct (b =? 0); [|auto].
  destruct (oleb O (osub O h v) _); [destruct (oeqb O v h); cbn; [auto|]; refine (conj Hlh (conj (le_refl h) _)); discriminate|].
  destruct (oleb O (osub O v l) _); [|auto]. destruct (oeqb O v l); cbn; [auto|]. refine (conj (le_refl l) (conj Hlh _)); discriminate.
Qed.
Lemma snap_all_spec lo hi k x bs : box_le lo hi -> inbox lo hi x ->
  let '(x4, _, _, chg) := snap_all O k lo hi x bs in inbox lo hi x4 /\ (chg = false -> x4 = x).
Proof.
  intros Hbox Hx. revert bs. induction Hx as [lo hi|l h v lo hi x H1 H2 Hx IH]; intros bs; [split; [apply inbox_nil|reflexivity]|].
  inversion Hbox as [|? ? Hlh Hb']; subst. destruct bs as [|b bs]; [split; [constructor; assumption|reflexivity]|].
  cbn [snap_all]. pose proof (snap1_spec k l h v b Hlh H1 H2) as Hv. destruct (snap1 O k l h v b) as [[[v' b'] hit] chg].
  specialize (IH Hb' bs). destruct (snap_all O k lo hi x bs) as [[[xs bss] ah] ac].
  destruct Hv as (Hv1 & Hv2 & Hv), IH as (Hxs & IH). split; [constructor; assumption|].
  intros E. apply orb_false_elim in E. rewrite (Hv (proj1 E)), (IH (proj2 E)). reflexivity.
Qed.

Section LS.
Variables (s : cgsettings (T:=T)) (k : consts (T:=T)) (bnd : option (list T * list T)) (x dir : list T) (step0 curv bound_step cost_fn0 : T).
Variable good : list T -> Prop.
Hypothesis good_x : good x.
Hypothesis good_pt : forall ds ss, good (point O bnd x dir ds ss).
Hypothesis cost0 : cost_fn0 = cost x.
Notation ds := (odiv O (o1 O) (norm2 dir)).
Notation gcheck := (gradient_check O cost grad isfinite s bnd x dir).
Notation pt := (point O bnd x dir ds).

(* gc_x, gc_cost_fn: what line_search_gradient_check leaves in x and cost_function_ *)
Lemma gc_spec final ss grad0 cv gc tx : gcheck final ss grad0 ds cost_fn0 cv = (gc, tx) ->
  tx = pt ss /\ gc_cf gc = cost tx /\ gc_gradient gc = grad tx
  /\ match gc_status gc with
     | MSuccess => gc_x gc = tx /\ gc_cost_fn gc = cost tx
     | MNotYetConverged | MInvalidCost | MInvalidGradient => gc_x gc = x /\ gc_cost_fn gc = cost_fn0
     | _ => False
     end.
Proof.
  unfold gradient_check. destruct (negb (isfinite _)); [|destruct (any_nonfinite _ _); [|destruct (_ && _)]];
    intros [= <- <-]; repeat split.
Qed.

Definition inv (st : ls_st (T:=T)) : Prop :=
  Forall good (l_log st)
  /\ ((l_ss1 st = o0 O /\ l_cf1 st = cost_fn0) \/ l_cf1 st = cost (pt (l_ss1 st)))
  /\ (l_cf2 st = cost (pt (l_ss2 st)) \/ l_cf2 st = l_cf1 st).
Definition strong (st : ls_st (T:=T)) : Prop := l_cf2 st = cost (pt (l_ss2 st)).
(* ls_x, ls_cost_fn: what line_search leaves in x and cost_function_ *)
Definition post (o : ls_out (T:=T)) : Prop := Forall good (ls_log o) /\ good (ls_x o) /\ ls_cost_fn o = cost (ls_x o).

(* every exit leaves in x either the start or a point of the line, with its cost *)
Lemma post_start status step g utd smp lg : Forall good lg -> post (mkLs status x step g utd cost_fn0 smp lg).
Proof. intros Hl. exact (conj Hl (conj good_x cost0)). Qed.
Lemma post_at status ss step g utd c smp lg : Forall good lg -> c = cost (pt ss) -> post (mkLs status (pt ss) step g utd c smp lg).
Proof. intros Hl Hc. exact (conj Hl (conj (good_pt _ _) Hc)). Qed.
(* the previous step, to which the error exits of both loops go back, is the start unless its step size is positive *)
Lemma moved_cf1 st : inv st -> oltb O (o0 O) (l_ss1 st) = true -> l_cf1 st = cost (pt (l_ss1 st)).
Proof. intros (_ & [[E _]|E] & _) H; [rewrite E, lt_irrefl in H; discriminate|exact E]. Qed.
(* the exit of the refinement when it cannot go on: the lower end of the bracket if that improved on the start *)
Lemma post_fallback st utd : inv st ->
  post (if oltb O (l_cf1 st) cost_fn0 then mkLs MSuccess (pt (l_ss1 st)) (l_ss1 st) (l_gradient st) utd (l_cf1 st) (l_samples st) (l_log st)
        else mkLs MFailedToConverge x step0 (l_gradient st) utd cost_fn0 (l_samples st) (l_log st)).
Proof.
  intros (Hl & [[_ E]|E] & _); [rewrite E, lt_irrefl; apply post_start; exact Hl|].
  destruct (oltb O (l_cf1 st) cost_fn0); [apply post_at|apply post_start]; assumption.
Qed.

Lemma bracket_spec itr : forall grad0 st, inv st ->
  match bracket O cost grad norm2 isfinite s k bnd x dir step0 curv bound_step cost_fn0 itr grad0 st with
  | BrDone o => post o | BrBracket itr' st' => inv st' /\ (itr' <> 0%nat -> strong st') end.
Proof.
  induction itr as [|itr IH]; intros grad0 st Hinv; [split; [exact Hinv|intros H; contradiction H; reflexivity]|].
  cbn [bracket]. destruct (gcheck step0 (l_ss2 st) grad0 ds cost_fn0 curv) as [gc tx] eqn:Egc.
  pose proof (gc_spec _ _ _ _ _ _ Egc) as (-> & Hcf & _ & Hxc).
  assert (Hlog : Forall good (l_log st ++ [pt (l_ss2 st)])) by (apply Forall_snoc; [apply Hinv|apply good_pt]).
  destruct (gc_status gc); try contradiction.
  (* cost function or gradient not finite *)
  2-3: destruct (oltb O (o0 O) (l_ss1 st)) eqn:E1; [apply post_at; [exact Hlog|exact (moved_cf1 st Hinv E1)]|apply post_start; exact Hlog].
  - (* Wolfe conditions met *)
    destruct Hxc as [-> ->]. apply post_at; [exact Hlog|reflexivity].
  - (* not yet converged *)
    destruct (oltb O (o0 O) (gc_gd gc) || oleb O (l_cf1 st) (gc_cf gc)).
    + exact (conj (conj Hlog (conj (proj1 (proj2 Hinv)) (or_introl Hcf))) (fun _ => Hcf)).
    + destruct (l_at_bound st); [apply post_at; assumption|].
      destruct (is_bound_step O bound_step && _); apply IH; exact (conj Hlog (conj (or_intror Hcf) (or_intror eq_refl))).
Qed.

Lemma refine_spec itr : forall grad0 st, inv st -> (itr <> 0%nat -> strong st) ->
  post (refine O cost grad norm2 osqrt isfinite s k bnd x dir step0 curv cost_fn0 itr grad0 cost_fn0 st).
Proof.
  induction itr as [|itr IH]; intros grad0 st Hinv Hstrong.
  - cbn [refine]. destruct (oltb O (l_cf2 st) (l_cf1 st)) eqn:E21; [|apply post_fallback; exact Hinv].
    destruct Hinv as (Hlog & _ & [H2|H2]); [apply post_at; assumption|rewrite H2, lt_irrefl in E21; discriminate].
  - specialize (Hstrong ltac:(discriminate)). cbn [refine]. destruct (oleb O (l_ss2 st) (l_ss1 st)); [apply post_fallback; exact Hinv|].
    match goal with |- context [gcheck step0 ?e grad0 ds cost_fn0 curv] => set (ss3 := e) end.
    destruct (gcheck step0 ss3 grad0 ds cost_fn0 curv) as [gc tx] eqn:Egc.
    pose proof (gc_spec _ _ _ _ _ _ Egc) as (-> & Hcf & _ & Hxc).
    assert (Hlog : Forall good (l_log st ++ [pt ss3])) by (apply Forall_snoc; [apply Hinv|apply good_pt]).
    destruct (gc_status gc); try contradiction.
    2-3: destruct (oltb O (o0 O) (l_ss1 st)) eqn:E1; [apply post_at; [exact Hlog|exact (moved_cf1 st Hinv E1)]|apply post_start; exact Hlog].
    + destruct Hxc as [-> ->]. apply post_at; [exact Hlog|reflexivity].
    + (* the new point replaces one end of the bracket; the other end keeps what is known of it *)
      destruct Hinv as (_ & H1 & _).
      destruct (oltb O (o0 O) (gc_gd gc)); [|destruct (oltb O (gc_cf gc) (l_cf1 st))]; apply IH; try (intros _; first [exact Hcf|exact Hstrong]).
      * exact (conj Hlog (conj H1 (or_introl Hcf))).
      * exact (conj Hlog (conj (or_intror Hcf) (or_introl Hstrong))).
      * exact (conj Hlog (conj H1 (or_introl Hcf))).
Qed.

Theorem line_search_spec gradient utd samples log : Forall good log ->
  post (line_search O cost grad norm2 osqrt isfinite s k bnd x dir step0 curv bound_step cost_fn0 gradient utd samples log).
Proof.
  intros Hlog. unfold line_search. destruct (oleb O (o0 O) _); [apply post_start; exact Hlog|].
  (* the first step size and whether it is the step to the bound do not matter *)
  match goal with |- context [let '(ss2, atb) := ?p in _] => destruct p as [ss2 atb] end.
  (* the state before the first trial: both ends of the bracket are the start *)
  match goal with |- context [bracket _ _ _ _ _ _ _ _ _ _ _ _ _ _ _ ?g0 ?st0] =>
    pose proof (bracket_spec (g_max_ls s) g0 st0 (conj Hlog (conj (or_introl (conj eq_refl eq_refl)) (or_intror eq_refl)))) as Hb end.
  destruct (bracket _ _ _ _ _ _ _ _ _ _ _ _ _ _ _ _ _) as [o|itr st]; [exact Hb|apply refine_spec; apply Hb].
Qed.
End LS.

(* no pair of bounds in the wrong order: by totality every pair is in the right one *)
Lemma valid_bounds_box_le lo hi x : valid_bounds O lo hi x = true -> box_le lo hi.
Proof.
  unfold valid_bounds. intros H. apply andb_prop in H as [H _]. apply andb_prop in H as [H _].
  apply negb_true_iff, not_true_iff_false in H. apply Forall_forall. intros p Hp. destruct (le_total (fst p) (snd p)) as [E|E]; [exact E|].
  contradiction H. apply existsb_exists. exists p. exact (conj Hp E).
Qed.

(* ASSUMPTION of the model (as SInvokeFree in MinimFlow.v): when no component of the direction points to a finite bound
   (no nearest bound is found), the line search without bounds cannot leave the box.  It is needed only for the constants [k]
   of the run and for the scale the drivers pass, the norm of the direction. *)
Definition free_search_ok (lo hi : list T) (k : consts (T:=T)) : Prop :=
  forall x dir, inbox lo hi x -> snd (fst (nearest_bound O k (norm2 dir) x lo hi dir 0 (cbig k, -1, 0))) < 0 ->
  forall ds' ss, inbox lo hi (point O None x dir ds' ss).

Section Bounded.
Variables lo hi : list T.
Hypothesis Hbox : box_le lo hi.
Variable k : consts (T:=T).
Hypothesis free_ok : free_search_ok lo hi k.
Notation ev_ok := (Forall (fun e : event (T:=T) => inbox lo hi (ev_state e))).

(* the line search in the form in which both bounded drivers enter it *)
Lemma search_post s x dir step curv cf g utd smp bstep inear itype : inbox lo hi x -> cf = cost x ->
  nearest_bound O k (norm2 dir) x lo hi dir 0 (cbig k, -1, 0) = (bstep, inear, itype) ->
  post (inbox lo hi)
    (if 0 <=? inear then line_search O cost grad norm2 osqrt isfinite s k (Some (lo, hi)) x dir step curv bstep cf g utd smp []
     else line_search O cost grad norm2 osqrt isfinite s k None x dir step curv (oneg O (o1 O)) cf g utd smp []).
Proof.
  intros Hx Hcf Enb. destruct (Z.leb_spec 0 inear) as [Ei|Ei]; apply line_search_spec; try assumption; try constructor.
  - intros ds' ss. apply inbox_clamp. exact Hbox.
  - intros ds' ss. apply free_ok; [exact Hx|rewrite Enb; exact Ei].
Qed.
(* the placement of variables on their bounds after the line search (both bounded drivers): the state stays in the box,
   and the cost is evaluated again exactly when the state is no longer the one the line search left *)
Lemma placed_ok o (changed : bool) i (up : bool) bs3 log1 x4 bs4 anyhit anychg : post (inbox lo hi) o -> ev_ok log1 ->
  let xb := if up then nth i hi (o0 O) else nth i lo (o0 O) in
  snap_all O k lo hi (if changed then set_nth i xb (ls_x o) else ls_x o) bs3 = (x4, bs4, anyhit, anychg) ->
  let log2 := log1 ++ ev_states (ls_log o) in
  inbox lo hi x4 /\ (if changed || anychg then cost x4 else ls_cost_fn o) = cost x4
  /\ ev_ok (if changed || anychg then log2 ++ [EvCost x4] else log2).
Proof.
  intros (Ho1 & Ho2 & Ho3) Hl1 xb Esn log2.
  assert (Hx3 : inbox lo hi (if changed then set_nth i xb (ls_x o) else ls_x o)).
  { destruct changed; [|exact Ho2]. apply inbox_set_nth_bound; assumption. }
  pose proof (snap_all_spec lo hi k _ bs3 Hbox Hx3) as Hsn. rewrite Esn in Hsn. destruct Hsn as [Hx4 Hun].
  assert (Hl2 : ev_ok log2) by (apply Forall_app; split; [exact Hl1|apply ev_states_good; exact Ho1]).
  split; [exact Hx4|]. destruct (changed || anychg) eqn:E; [split; [reflexivity|apply Forall_snoc; assumption]|].
  apply orb_false_elim in E as [-> ->]. rewrite (Hun eq_refl). split; [exact Ho3|exact Hl2].
Qed.

Notation bpost := (dpost cost (inbox lo hi)).
Notation binv := (cinv cost (inbox lo hi)).
Lemma cg_after_ls_spec s q2 bs1 g dir last_restart inear itype log1 gn o :
  post (inbox lo hi) o -> ev_ok log1 -> 0 <= q_it q2 -> (0 < g_max_it s -> q_it q2 < g_max_it s) ->
  step_ok (bpost s) (binv s) (cg_after_ls O cost s k lo hi q2 bs1 g dir last_restart inear itype log1 gn o).
Proof.
  intros Ho Hl1 Hit Hmax.
  refine (step_ok_quad _ _ _ _ _); intros x4 bs4 anyhit anychg Esn.
  (* its three facts are taken apart in the two small goals at the end: here a case analysis pays for retyping the whole stage *)
  pose proof (placed_ok o _ _ (0 <? itype) _ log1 x4 bs4 anyhit anychg Ho Hl1 Esn) as Hp.
  refine (step_ok_pair _ _ _ _ _); intros status restart5.
  apply (continue_or_finish cost (inbox lo hi) s (binv s) (fun st => cg_finish cost s st _)); destruct Hp as (Hx4 & Hc4 & Hl3).
  - intros st. apply finish_post; cbn; auto; lia.
  - intros Hm. apply dinv_next; assumption.
Qed.

Lemma cg_search_spec s fr nx q2 bs1 g cf gn restart1 log1 : inbox lo hi (q_x q2) -> cf = cost (q_x q2) -> ev_ok log1 -> 0 <= q_it q2 -> (0 < g_max_it s -> q_it q2 < g_max_it s) ->
  step_ok (bpost s) (binv s) (cg_search O cost grad norm2 osqrt isfinite s k fr lo hi nx q2 bs1 g cf gn restart1 log1).
Proof.
  intros Hx Hcf Hl1 Hit Hmax. unfold cg_search.
  destruct (nearest_bound O k (norm2 _) (q_x q2) lo hi _ 0 (cbig k, -1, 0)) as [[bstep inear] itype] eqn:Enb.
  apply cg_after_ls_spec; [eapply search_post; eassumption|assumption..].
Qed.

Lemma cg_step_spec s fr nx q : binv s q -> step_ok (bpost s) (binv s) (cg_step O cost grad norm2 osqrt isfinite s k fr lo hi nx q).
Proof.
  intros (Hx & Hl & Hit & Hmax & Hc). unfold cg_step.
  (* the state and the cost after the evaluation, whether it was needed or not: all that matters of them *)
  match goal with |- context [cg_finish _ _ MInvalidCost ?r] => set (q1 := r) end.
  match goal with |- context [isfinite ?c] => set (cf := c) end.
  assert (H1 : inbox lo hi (q_x q1) /\ ev_ok (q_log q1) /\ q_it q1 = q_it q /\ q_cost q1 = cost (q_x q1) /\ cf = cost (q_x q1)).
  { destruct (Z.ltb_spec (q_utd q) 1); cbn; repeat split; auto using Forall_snoc. }
  destruct H1 as (Hx1 & Hl1 & Hi1 & Hc1 & Hcf). clearbody q1 cf. rewrite <- Hi1 in Hit, Hmax.
  assert (Hmax' : 0 < g_max_it s -> q_it q1 <= g_max_it s) by lia.
  apply step_ok_if; [apply finish_post; assumption|].
  apply step_ok_if; [apply finish_post; assumption|].
  apply step_ok_if; [apply finish_post|apply cg_search_spec]; auto; apply Forall_snoc; assumption.
Qed.
End Bounded.

Theorem cg_bounded_spec lo hi k fuel s fr x m1 inf : free_search_ok lo hi k -> valid_bounds O lo hi x = true ->
  dpost cost (inbox lo hi) s (cg_bounded O cost grad norm2 osqrt isfinite fuel s k fr lo hi x m1 inf).
Proof.
  intros Hfree Hv. pose proof (valid_bounds_box_le lo hi x Hv) as Hbox. unfold cg_bounded. rewrite Hv. cbn [negb].
  eapply (fuel_loop (fun f q => cgb_loop O cost grad norm2 osqrt isfinite f s k fr lo hi _ q) _ _ (cinv cost (inbox lo hi) s) (dpost cost (inbox lo hi) s)); [reflexivity|reflexivity|..].
  - intros q. apply fuel_post.
  - apply cg_step_spec; assumption.
  - apply dinv_start, inbox_clamp; assumption.
Qed.

Notation upost := (dpost cost (fun _ => True)).
Notation uinv := (cinv cost (fun _ => True)).
Lemma cgu_step_spec s k fr nx q : uinv s q -> step_ok (upost s) (uinv s) (cgu_step O cost grad norm2 osqrt isfinite s k fr nx q).
Proof.
  intros (_ & _ & Hit & Hmax & Hc).
  assert (Hmax' : 0 < g_max_it s -> q_it q <= g_max_it s) by lia.
  pose proof (ev_good_all (fun _ : list T => True) (fun _ => I)) as Hlog.
  (* unfolded and reduced outside the goal, then put in its place by one [change]: the kernel converts the folded step
     function directly with the form in which the projections of the intermediate records are gone.  Reducing in the
     goal (cbv beta delta, then cbn) leaves the form that still has the lets as a stage in the proof term, and the kernel
     checks that one by expanding every let at every use, each record a dozen projections of the one before: ten times
     the work *)
  match goal with |- step_ok ?P ?I ?t =>
    let b := eval cbv beta delta [cgu_step] in t in
    let b := eval cbn [q_x q_gradient q_bs q_utd q_step q_restart q_last_restart q_it q_samples q_cost q_start q_prev q_dir q_gn q_log] in b in
    change (step_ok P I b) end.
  assert (Hcf : (if q_utd q <? 1 then cost (q_x q) else q_cost q) = cost (q_x q)) by (destruct (Z.ltb_spec (q_utd q) 1); auto).
  (* the result of the line search occurs some eighty times; all that matters of it is the cost it leaves *)
  match goal with |- context [ls_x ?o'] => set (o := o') end.
  assert (Ho : post (fun _ => True) o) by (apply line_search_spec; auto).
  apply proj2, proj2 in Ho. clearbody o.
  do 3 (apply step_ok_if; [apply finish_post; auto|]).
  refine (step_ok_pair _ _ _ _ _); intros status restart5.
  apply (continue_or_finish cost (fun _ => True) s (uinv s) (fun st => cg_finish cost s st _)).
  - intros st. apply finish_post; cbn; auto; lia.
  - intros Hm. apply dinv_next; auto.
Qed.
Theorem cg_unbounded_spec fuel s k fr x m1 inf : upost s (cg_unbounded O cost grad norm2 osqrt isfinite fuel s k fr x m1 inf).
Proof.
  unfold cg_unbounded.
  eapply (fuel_loop (fun f q => cgu_loop O cost grad norm2 osqrt isfinite f s k fr _ q) _ _ (uinv s) (upost s)); [reflexivity|reflexivity|..].
  - intros q. apply fuel_post.
  - apply cgu_step_spec.
  - exact (dinv_start _ _ _ _ _ I).
Qed.

End MinimCGProofs.
