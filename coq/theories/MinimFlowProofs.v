(* C18: a driver whose atoms are all safe hands only states inside the box to the user's call-backs, on every execution. *)
From Coq Require Import List.
From Adept Require Import Scalar MinimProofs MinimFlow.

Section FlowProofs.
Context {T : Type} (O : Ops T).
Hypothesis le_total : forall a b, oleb O a b = true \/ oleb O b a = true.
Hypothesis lt_le : forall a b, oltb O a b = negb (oleb O b a).
Variables lo hi : list T.
Hypothesis Hbox : box_ok O lo hi.
Notation within := (within O lo hi).
Definition all_within (s : state) : Prop := forall v, within (s v).

Lemma upd_within s v u : all_within s -> within u -> all_within (upd s v u).
Proof. intros Hs Hu w. unfold upd. destruct (var_eqb w v); [exact Hu|apply Hs]. Qed.
Lemma step_safe s a s' o : safe_atom a = true -> all_within s -> step O lo hi s a s' o -> all_within s' /\ (forall x, o = Some x -> within x).
Proof.
  intros Hsafe Hs Hstep. split.
  - destruct Hstep as [s v u Hu|s v u|s v|s v w|s v i up|s v|s b|s s' Hfree]; cbn in Hsafe; try discriminate.
    + apply upd_within; [exact Hs|]. apply (clamp_within O le_total lt_le); [exact Hbox|exact Hu].
    + apply upd_within; [exact Hs|]. apply (clamp_within O le_total lt_le); [exact Hbox|apply Hs].
    + apply upd_within; [exact Hs|apply Hs].
    + apply upd_within; [exact Hs|]. apply (set_nth_bound_within O le_total); [exact Hbox|apply Hs].
    + exact Hs.
    + exact Hs.
    + exact Hfree.
  - (* only a call-back hands a state out, and it is a component of s *)
    intros x E. destruct Hstep; try discriminate. injection E as <-. apply Hs.
Qed.
Theorem exec_safe s tr s' obs : exec O lo hi s tr s' obs -> Forall (fun a => safe_atom a = true) tr -> all_within s -> Forall within obs /\ all_within s'.
Proof.
  induction 1 as [s|s a s1 o tr s2 obs Hst Hex IH]; intros Hsafe Hs; [split; [constructor|exact Hs]|].
  apply Forall_cons_iff in Hsafe as [Ha Htr]. destruct (step_safe _ _ _ _ Ha Hs Hst) as [Hs1 Ho]. destruct (IH Htr Hs1) as [Hobs Hs2].
  split; [|exact Hs2]. destruct o as [x|]; [constructor; [apply Ho; reflexivity|exact Hobs]|exact Hobs].
Qed.
(* the form used with the generated programs (Properties_C18.v) *)
Theorem program_safe (prog : list atom) tr s s' obs : safe prog = true -> (forall a, In a tr -> In a prog) -> all_within s -> exec O lo hi s tr s' obs ->
  Forall within obs /\ all_within s'.
Proof.
  intros Hp Hin Hs Hex. unfold safe in Hp. rewrite forallb_forall in Hp.
  apply (exec_safe s tr s' obs Hex); [|exact Hs]. apply Forall_forall. intros a Ha. apply Hp, Hin, Ha.
Qed.
End FlowProofs.
