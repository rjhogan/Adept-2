(* C10 — a recording can be replayed, re-seeded, paused and restarted without residue.
   Model: Protocol.v (hand model of the recording life cycle; tie H: ./check C10 runs random protocol histories on a
   pausable build of the real Stack against the extracted model, every observation compared).  The sweeps are those
   of Tape.v (C02).  That every recording site of the library is a no-op while paused is not a statement about this
   model: the check executes every statement kind of its catalogue while paused and compares statement / operation
   counts, values and later gradients (partial: a sweep of the catalogue, not a theorem). *)
From Coq Require Import List Ring_theory ZArith.
From Adept Require Import Scalar Tape TapeAdjoint Protocol ProtocolProofs StackDefs StackProofs ProtocolStack.
Import ListNotations.

Section AnyRing.
Context {T : Type} (O : Ops T).
Hypothesis Rth : ring_theory (o0 O) (o1 O) (oadd O) (omul O) (osub O) (oneg O) (@eq T).
Hypothesis eqb_true : forall a b, oeqb O a b = true -> a = b.

(* every reachable state keeps the recorded indices below max_gradient (what makes the zeroed prefix sufficient) *)
Theorem C10_indices_below_max_gradient : forall ops, PInv (prun O ops (pinit O)).
Proof using Type. intros ops. apply (prun_preserves O _ (pstep_inv O)). constructor. Qed.

(* replay: from ANY state (whatever passes, seeds, stale buffer contents and allocation came before), clear_gradients
   followed by seeds and a tangent or adjoint pass gives, on every gradient index, exactly the sweep of the tape over
   the seed vector built on zeros - i.e. the result on a fresh identical recording; the tape is untouched *)
Theorem C10_replay : forall st i0 x0 seeds, PInv st ->
  let n := ngrad st in let sv := seedvec O n ((i0, x0) :: seeds) in
  agree n (buf (prun O (pass_ops ((i0, x0) :: seeds) OForward) st)) (fwd_sweep O (tp st) sv) /\
  agree n (buf (prun O (pass_ops ((i0, x0) :: seeds) OReverse) st)) (rev_sweep O (tp st) sv) /\
  tp (prun O (pass_ops ((i0, x0) :: seeds) OForward) st) = tp st /\ tp (prun O (pass_ops ((i0, x0) :: seeds) OReverse) st) = tp st.
Proof using Type. exact (replay O). Qed.

(* the Jacobian is a function of the tape and the two variable lists only *)
Theorem C10_jacobian_private : forall st,
  obs_jacobian O st = map (fun j => map (fun i => fwd_sweep O (tp st) (unit_vec O j) i) (dep st)) (indep st).
Proof using Type. reflexivity. Qed.

(* new_recording: empty tape, no seeds, no lists; and every later observation (gradients, Jacobians, counts) is the
   same whatever the state was before, for any continuation that respects the protocol (no active object is created
   between seeding and clear_gradients) *)
Theorem C10_new_recording_state : forall st ig, let s := pstep O st (ONewRecording ig) in
  tp s = [] /\ init s = false /\ indep s = [] /\ dep s = [] /\ ngrad s = S ig.
Proof using Type. cbn. repeat split. Qed.
Theorem C10_new_recording_forgets : forall a b ig ops, recording a = recording b ->
  respects_all O (pstep O a (ONewRecording ig)) ops ->
  let a' := prun O ops (pstep O a (ONewRecording ig)) in let b' := prun O ops (pstep O b (ONewRecording ig)) in
  (forall i, obs_gradient a' i = obs_gradient b' i) /\ obs_jacobian O a' = obs_jacobian O b' /\ obs_counts a' = obs_counts b'.
Proof using Type.
  (* the hypothesis on the continuation is not used: an object created after the seeds lies at or beyond the initialised
     length, which no observation reads and which a sweep zeroes first (ProtocolProofs.sim, extend_covers) *)
  intros a b ig ops Hrec _. apply (sim_obs O), (sim_run O); [constructor|discriminate|apply sim_new_recording, Hrec].
Qed.

(* paused: statements, registrations and hand-made dependences leave the state unchanged *)
Theorem C10_paused_records_nothing : forall st, recording st = false ->
  (forall s, pstep O st (ORecord s) = st) /\ (forall k, pstep O st (ORegister k) = st) /\
  (forall l ops, pstep O st (OAddDep l ops) = st) /\ (forall l ops, pstep O st (OAppendDep l ops) = st).
Proof using Type. intros st H. repeat split; intros; cbn [pstep]; rewrite H; reflexivity. Qed.

(* add_derivative_dependence appends exactly the linear statement it describes (zero multipliers dropped) *)
Theorem C10_dependence_is_linear_statement : forall st l ops g, recording st = true -> stmt_lt (ngrad st) (mkStmt l (drop_zeros O ops)) = true ->
  exists s, tp (pstep O st (OAddDep l ops)) = tp st ++ [s] /\ fwd1 O s g = upd g l (rhs_val O ops g).
Proof using Rth eqb_true.
  intros st l ops g Hr Hl. exists (mkStmt l (drop_zeros O ops)). cbn [pstep]. rewrite Hr, Hl. split; [reflexivity|].
  unfold fwd1. cbn [lhs rhs]. rewrite (rhs_val_drop_zeros O Rth eqb_true). reflexivity.
Qed.

(* tie G: the gradient-list bookkeeping of adept::Stack TRANSLATED on every run from Stack.cpp / Stack.h (initialize_gradients,
   extend_gradients, set_gradients, get_gradients, compute_adjoint / compute_tangent_linear, clear_gradients, new_recording).
   In every state the model can reach, executing the translated code on the model's counters gives the model's next
   counters and the model's exception kind, and never touches the gradient buffer beyond its TRUE length (b_oob), for
   set_gradient / get_gradient of any object index, both sweeps and clear_gradients (new_recording: [new_recording_matches]
   in ProtocolStack.v) *)
Theorem C10_generated_stack_bookkeeping : forall ops ig i x,
  let st := prun O ops (pinit O) in
  (let r := do_set (Z.of_nat i) (Z.of_nat i + 1) (proj ig st) in
   same_counters (pstep O st (OSeed i x)) r /\ b_oob r = false /\
   match b_err r with None => errs (pstep O st (OSeed i x)) = errs st | Some e => errs (pstep O st (OSeed i x)) = kind_of e :: errs st end) /\
  (let r := do_get (Z.of_nat i) (Z.of_nat i + 1) (proj ig st) in b_oob r = false /\ option_map kind_of (b_err r) = obs_gradient_error st i) /\
  (let r := do_adjoint (proj ig st) in
   b_oob r = false /\ b_oob (do_tangent (proj ig st)) = false /\
   match b_err r with
   | None => init st = true /\ same_counters (pstep O st OReverse) r /\ same_counters (pstep O st OForward) r /\
             errs (pstep O st OReverse) = errs st /\ errs (pstep O st OForward) = errs st
   | Some e => init st = false /\ errs (pstep O st OReverse) = kind_of e :: errs st /\ errs (pstep O st OForward) = kind_of e :: errs st
   end) /\
  same_counters (pstep O st OClearGradients) (do_clear_gradients (proj ig st)).
Proof using Type. intros ops ig i x. exact (stack_bookkeeping O ig _ i x (proj2 (reachable_cap_inv O ops))). Qed.
End AnyRing.
Print Assumptions C10_generated_stack_bookkeeping.
Print Assumptions C10_indices_below_max_gradient.
Print Assumptions C10_replay.
Print Assumptions C10_jacobian_private.
Print Assumptions C10_new_recording_state.
Print Assumptions C10_new_recording_forgets.
Print Assumptions C10_paused_records_nothing.
Print Assumptions C10_dependence_is_linear_statement.

(* non-vacuity: record d2 = 3 d0 + 5 d1, run a tangent pass, then a second pass with another seed after clear_gradients *)
Example C10_example :
  let rec_ : list (pop (T:=Z)) := [ORegister 3; ONewRecording 3; OAddDep 2%nat [(3%Z, 0%nat); (0%Z, 1%nat)]; OAppendDep 2%nat [(5%Z, 1%nat)]] in
  let st := prun ZOps (rec_ ++ [OSeed 0%nat 1%Z; OForward]) (pinit ZOps) in
  let st2 := prun ZOps (pass_ops [(1%nat, 1%Z)] OForward) st in
  obs_gradient st 2 = Some 3%Z /\ obs_gradient st2 2 = Some 5%Z /\ obs_counts st2 = (1, 2) /\
  obs_gradient (prun ZOps [OClearGradients] st2) 2 = None.
Proof. vm_compute. repeat split. Qed.
