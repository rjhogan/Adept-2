(* C09 — recording never writes outside its buffers, whatever their initial size.
   Models: Buffers.v (StackStorageOrig.h/.cpp, Stack.h preallocate functions) and the GENERATED site table
   AdeptGen.Gen_Sites (every check_space call of the current sources with its reservation expression). *)
From Coq Require Import ZArith List Bool Lia.
From Adept Require Import Buffers BuffersProofs Expr ReduceDefs Reduce ReduceProofs.
From AdeptGen Require Import Gen_Sites Gen_Reduce.
Import ListNotations.
Local Open Scope Z_scope.

(* from ANY initial capacity k >= 1, a recording whose pushes respect the reservations stores
   nothing at or beyond the capacities the code computed *)
Theorem C09_no_out_of_bounds_store : forall k tr, 1 <= k -> safe 0 tr = true -> snd (brun (binit k) tr) = 0.
Proof.
  intros k tr Hk Hs. exact (proj1 (run_safe_init k tr Hk Hs)).
Qed.
Print Assumptions C09_no_out_of_bounds_store.

(* a site "reserve R, push P, push_lhs" is within the discipline exactly when P <= R ... *)
Theorem C09_site_discipline : forall R P, 0 <= R -> (safe 0 (site_trace R P) = true <-> Z.of_nat P <= R).
Proof.
  intros R P HR. unfold site_trace. rewrite safe_cons, safe_pushes by (cbn; lia). cbn [allowed credit andb safe].
  rewrite map_length, seq_length, andb_true_r, Z.max_r by lia. apply Z.leb_le.
Qed.
Print Assumptions C09_site_discipline.
(* ... then it is safe after any safe history, for every initial capacity ... *)
Theorem C09_site_safe_in_context : forall R P k prefix, 0 <= R -> Z.of_nat P <= R -> 1 <= k -> safe 0 prefix = true ->
  snd (brun (binit k) (prefix ++ site_trace R P)) = 0.
Proof.
  intros R P k prefix HR HP Hk Hpre. apply C09_no_out_of_bounds_store; [exact Hk|].
  apply safe_app; [lia|exact Hpre|]. apply C09_site_discipline; assumption.
Qed.
Print Assumptions C09_site_safe_in_context.
(* ... and a site that pushes more than R+1 does overflow for the initial capacity R+1 *)
Theorem C09_under_reservation_overflows : forall R P, 0 <= R -> R + 1 < Z.of_nat P ->
  0 < snd (brun (binit (R + 1)) (site_trace R P)).
Proof.
  (* k = R+1: check_space(R) finds exactly R free slots besides the spare one and does not grow *)
  intros R P HR HP. rewrite binit_eq by lia. unfold site_trace. rewrite brun_cons. cbn [bstep n_ops cap_ops].
  destruct (Z.ltb_spec (R + 1) (0 + R + 1)); [lia|]. cbn [fst snd].
  apply pushes_overflow; [|rewrite map_length, seq_length]; cbn [n_ops cap_ops]; lia.
Qed.
Print Assumptions C09_under_reservation_overflows.

(* GENERATED OBLIGATIONS: every check_space call in the current sources reserves at least the demand of
   its function, for all non-negative sizes *)
Definition nonneg (v : sizes) : Prop :=
  0 <= nact v /\ 0 <= sz v /\ 0 <= n v /\ 0 <= extra v /\ 0 <= newdims v /\ 0 <= dim0 v.
Theorem C09_every_site_reserves_enough : Forall (fun s => forall v, nonneg v -> demand s v <= reserve s v) sites.
Proof.
  (* file names and line numbers play no part: go over the list of (reservation, demand) pairs, which is small *)
  apply (proj1 (Forall_map (fun s => (reserve s, demand s)) (fun p => forall v, nonneg v -> snd p v <= fst p v) sites)).
  cbv [sites map reserve demand fst snd nonneg].
  repeat (constructor; [lia|]). constructor.
Qed.
Print Assumptions C09_every_site_reserves_enough.

(* the recorded operations and statements do not depend on the capacities *)
Theorem C09_same_recording : forall k1 k2 tr, 1 <= k1 -> 1 <= k2 -> safe 0 tr = true ->
  same_content (fst (brun (binit k1) tr)) (fst (brun (binit k2) tr)).
Proof.
  intros k1 k2 tr H1 H2 Hs. apply same_content_eq.
  rewrite (proj2 (run_safe_init k1 tr H1 Hs)), (proj2 (run_safe_init k2 tr H2 Hs)). reflexivity.
Qed.
Print Assumptions C09_same_recording.
(* preallocate_statements / preallocate_operations change capacities only *)
Theorem C09_preallocate_speed_only : forall b e, is_prealloc e = true ->
  same_content b (fst (bstep b e)) /\ snd (bstep b e) = false.
Proof. intros b [] E; try discriminate E; unfold same_content; cbn [bstep]; split_cmp; auto. Qed.
Print Assumptions C09_preallocate_speed_only.

(* non-vacuity: initial capacity 1, the buffer grows twice, nothing is lost *)
Example C09_example :
  let tr := [ECheck 2; EPush 10; EPush 11; ELhs 1; EPreOps 5; ECheck 3; EPush 12; EPush 13; EPush 14; ELhsRange 3 7] in
  safe 0 tr = true /\ snd (brun (binit 1) tr) = 0 /\
  ops_rec (fst (brun (binit 1) tr)) = [10;11;12;13;14] /\ cap_ops (fst (brun (binit 1) tr)) = 13 /\
  n_st (fst (brun (binit 1) tr)) = 5.
Proof. vm_compute. repeat split. Qed.

(* the demand of two sites is DERIVED, not read by hand: (1) an expression statement never pushes more than E::n_active
   operations (the reservation of Active / ActiveReference / array element assignment), for every expression tree and every
   position; (2) the element loop of reduce_active pushes at most (n_active + extra_element_cost) * n operations, with the
   policies translated from reduce.h (what site reduce.h:reduce_active reserves) *)
Theorem C09_expression_demand_is_n_active : forall (T : Type) (F : FOps T) arrs (e : expr (T:=T)) A S scr w,
  (Z.of_nat (List.length (calc_gradient F arrs e A S scr w)) <= n_active e)%Z.
Proof. intros T F. exact (ExprProofs.pushes_le_n_active F). Qed.
Print Assumptions C09_expression_demand_is_n_active.
Theorem C09_reduction_demand_within_reservation : forall (T : Type) (F : FOps T) (minf pinf : T) t k (es : list (expr (T:=T))) na,
  Forall (fun e : expr (T:=T) => (n_active e <= na)%Z) es ->
  (Z.of_nat (ops_in_loop F minf pinf t (reduce_policy k) es) <= reduce_reservation na (rp_extra (reduce_policy k)) (Z.of_nat (List.length es)))%Z.
Proof. intros T F minf pinf t k es na. apply loop_within_reservation, generated_extra_cost. Qed.
Print Assumptions C09_reduction_demand_within_reservation.
