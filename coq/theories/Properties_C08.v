(* C08 — every live active object owns a distinct gradient slot, in any order.
   Model: GapList.v (tie H: correspondence run of ./check C08 against adept::Stack; tie G for the register and the
   unregister functions: Gen_Gaplist.v, translated from Stack.h / Stack.cpp on every run). *)
From Coq Require Import ZArith List.
From Adept Require Import GapList GapListProofs GapListGen.
Import ListNotations.
Local Open Scope Z_scope.

(* Every history of register1 / registerN(n>=1) / unregister(k-th live block) / new_recording
   from the initial state satisfies the partition invariant (invalid operations are no-ops
   in [step], so no hypothesis on the history is needed). *)
Theorem C08_inv_every_history : forall ops, Inv (fst (run ops)) (snd (run ops)).
Proof. exact run_inv. Qed.
Print Assumptions C08_inv_every_history.

(* live blocks are pairwise disjoint: no gradient index is owned twice *)
Theorem C08_distinct : forall ops p q bp bq i, p <> q ->
  nth_error (snd (run ops)) p = Some bp -> nth_error (snd (run ops)) q = Some bq ->
  in_block i bp -> in_block i bq -> False.
Proof. intros ops. exact (live_distinct _ _ (run_inv ops)). Qed.
Print Assumptions C08_distinct.

(* every live index is below i_gradient, itself at most max_gradients() *)
Theorem C08_below_reported : forall ops p bp i,
  nth_error (snd (run ops)) p = Some bp -> in_block i bp ->
  0 <= i < ig (fst (run ops)) /\ ig (fst (run ops)) <= mg (fst (run ops)).
Proof. intros ops. exact (live_below_max _ _ (run_inv ops)). Qed.
Print Assumptions C08_below_reported.

(* n_gradients_registered() equals the number of live active elements *)
Theorem C08_count : forall ops, nreg (fst (run ops)) = total (snd (run ops)).
Proof. intros ops. exact (inv_nreg _ _ (run_inv ops)). Qed.
Print Assumptions C08_count.

(* recycling: a block handed out by register was not live *)
Theorem C08_recycle_fresh : forall ops n, 1 <= n -> forall i b p,
  snd (registerN (fst (run ops)) n) <= i < snd (registerN (fst (run ops)) n) + n ->
  nth_error (snd (run ops)) p = Some b -> ~ in_block i b.
Proof. intros ops n. exact (register_fresh _ _ n (run_inv ops)). Qed.
Print Assumptions C08_recycle_fresh.

(* gaps and live blocks never overlap *)
Theorem C08_gaps_vs_live : forall ops p bp k g i,
  nth_error (snd (run ops)) p = Some bp -> nth_error (gaps (fst (run ops))) k = Some g ->
  in_block i bp -> ~ (fst g <= i <= snd g).
Proof. intros ops. exact (gaps_disjoint_from_live _ _ (run_inv ops)). Qed.
Print Assumptions C08_gaps_vs_live.

(* non-vacuity: a concrete history with recycling, a partial fit, a merge and the top shortcut *)
Example C08_example :
  let ops := [ORegN 3; OReg1; ORegN 2; OUnreg 1; ORegN 2; OUnreg 1; OReg1; ONewRec; OUnreg 2] in
  snd (run ops) = [(3,1); (6,2)] /\ gaps (fst (run ops)) = [(0,2);(4,5)] /\
  ig (fst (run ops)) = 8 /\ mg (fst (run ops)) = 9.
Proof. vm_compute. repeat split. Qed.

(* Tie G.  The register paths (register_gradient, do_register_gradients) and the top-of-stack branch of
   unregister_gradient / unregister_gradients, re-assembled from the arithmetic, comparisons and field updates
   read from the current source, are the hand model's functions - for every state and argument, not only for
   reachable ones.  An edit of any of those expressions (a comparison turned, a gap shrunk by the wrong amount,
   the count adjusted wrongly, the wrong end of the gap returned) changes Gen_Gaplist.v and breaks this. *)
Theorem C08_generated_register_and_top_paths : forall s idx n,
  gen_register1 s = register1 s /\
  gen_registerN s n = registerN s n /\
  gen_unregister1_top s idx = model_unregister_top s idx 1 /\
  gen_unregisterN_top n s idx = model_unregister_top s idx n.
Proof.
  intros s idx n.
  (* unregister_gradient's own top-of-stack branch is that of unregister_gradients at n = 1, expression by expression *)
  exact (conj (gen_register1_eq s) (conj (gen_registerN_eq s n)
        (conj (gen_unregisterN_top_eq s idx 1) (gen_unregisterN_top_eq s idx n)))).
Qed.
Print Assumptions C08_generated_register_and_top_paths.

(* ... hence a block handed out by the code read from the source was not live, in every reachable state *)
Theorem C08_generated_recycle_fresh : forall ops n, 1 <= n -> forall i b p,
  snd (gen_registerN (fst (run ops)) n) <= i < snd (gen_registerN (fst (run ops)) n) + n ->
  nth_error (snd (run ops)) p = Some b -> ~ in_block i b.
Proof.
  intros ops n. rewrite gen_registerN_eq. exact (register_fresh _ _ n (run_inv ops)).
Qed.
Print Assumptions C08_generated_recycle_fresh.

(* The whole allocator as the source has it: unregister_gradient (inline top-of-stack branch + unregister_gradient_not_top)
   and unregister_gradients, with the cached-gap test, the linear search, the insertion of a new gap and the two merges
   re-assembled from the expressions read from Stack.cpp, are the model's unregisterN for every state and argument. *)
Theorem C08_generated_unregister_paths : forall s idx n,
  gen_unregister1 s idx = unregisterN s idx 1 /\ gen_unregisterN s idx n = unregisterN s idx n.
Proof. intros s idx n. exact (conj (gen_unregister1_eq s idx) (gen_unregisterN_eq s idx n)). Qed.
Print Assumptions C08_generated_unregister_paths.

(* ... hence the partition invariant, for every history run with the functions read from the source *)
Theorem C08_generated_inv_every_history : forall ops,
  gen_run ops = run ops /\ Inv (fst (gen_run ops)) (snd (gen_run ops)).
Proof. intros ops. split; [exact (gen_run_eq ops)|]. rewrite gen_run_eq. exact (run_inv ops). Qed.
Print Assumptions C08_generated_inv_every_history.

(* non-vacuity: the generated paths on a state with two gaps - shrink of the first gap, exact fit, no fit,
   top-of-stack release that swallows the last gap *)
Example C08_example_generated :
  let s := mk 8 9 3 [(0,2);(6,7)] (Some 1%nat) in
  gen_registerN s 2 = (mk 8 9 5 [(2,2);(6,7)] (Some 1%nat), 0) /\
  gen_registerN s 3 = (mk 8 9 6 [(6,7)] (Some 0%nat), 0) /\
  gen_registerN s 4 = (mk 12 12 7 [(0,2);(6,7)] (Some 1%nat), 8) /\
  gen_unregister1_top (mk 9 9 3 [(0,2);(6,7)] (Some 1%nat)) 8 = Some (mk 6 9 2 [(0,2)] None) /\
  gen_unregister1_top s 3 = None /\
  gen_unregister1 s 3 = mk 8 9 2 [(0,3);(6,7)] (Some 0%nat) /\
  gen_unregisterN s 3 3 = mk 8 9 0 [(0,7)] (Some 0%nat) /\
  gaps (fst (gen_run [ORegN 3; OReg1; ORegN 2; OUnreg 1; ORegN 2; OUnreg 1; OReg1; ONewRec; OUnreg 2])) = [(0,2);(4,5)].
Proof. vm_compute. repeat split. Qed.
