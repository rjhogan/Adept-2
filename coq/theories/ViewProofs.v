(* C06: every view-forming operation addresses exactly the parent elements its index expression
   denotes.  One notion carries the file: [embeds v' v f] - the index map f sends the index box of
   v' one-to-one into that of v, and v' addresses at j what v addresses at f j.  Every operation is
   an embedding by its denotation, and embeddings compose. *)
From Coq Require Import ZArith List Bool Lia Permutation.
From Adept Require Import ListProofs View.
Import ListNotations.
Local Open Scope Z_scope.
Local Arguments Z.mul : simpl never.

Definition wfv (v : view) : Prop := length (dims v) = length (strides v).

Lemma ap_count_pos b e s k : 0 < s -> b <= e ->
  (k < Z.quot (e + s - b) s <-> b + s * k <= e).
Proof. intros Hs Hbe. rewrite Z.quot_div_nonneg by lia.
  (* k < a / s  <->  (k + 1) * s <= a *)
  rewrite <- Z.le_succ_l, (Z.mul_comm s k). split; intro H.
  - pose proof (Z.mul_div_le (e + s - b) s Hs). nia.
  - apply Z.div_le_lower_bound; lia.
Qed.
Lemma ap_count_neg b e s k : s < 0 -> e <= b ->
  (k < Z.quot (e + s - b) s <-> e <= b + s * k).
Proof. intros Hs Hbe.
  rewrite <- (Z.quot_opp_opp (e + s - b) s) by lia. replace (- (e + s - b)) with (b + - s - e) by lia.
  rewrite (ap_count_pos e b (- s) k) by lia. lia.
Qed.

Lemma inb_length : forall ds j, inb ds j -> length ds = length j.
Proof. induction ds as [|d ds IH]; intros [|i j] H; simpl in *; try contradiction; auto. f_equal. apply IH. tauto. Qed.
Lemma inb_nth : forall ds j, inb ds j -> forall k, (k < length ds)%nat -> 0 <= nth k j 0 < nth k ds 0.
Proof. induction ds as [|d ds IH]; intros [|i j] H k Hk; simpl in *; [lia|contradiction..|].
  destruct k as [|k]; [tauto|]. apply IH; [tauto|lia]. Qed.
Lemma inb_of_nth : forall ds j, length ds = length j ->
  (forall k, (k < length ds)%nat -> 0 <= nth k j 0 < nth k ds 0) -> inb ds j.
Proof. induction ds as [|d ds IH]; intros [|i j] Hl H; simpl in *; try discriminate; auto.
  split; [apply (H O); lia|]. apply IH; [lia|]. intros k Hk. apply (H (S k)). lia. Qed.
Lemma inb1_all d (P : list Z -> Prop) : (forall a, 0 <= a < d -> P [a]) -> forall j, inb [d] j -> P j.
Proof. intros H [|a [|? ?]]; simpl; try tauto. intros [Ha _]. auto. Qed.
Lemma inb2_all d0 d1 (P : list Z -> Prop) : (forall a c, 0 <= a < d0 -> 0 <= c < d1 -> P [a; c]) -> forall j, inb [d0; d1] j -> P j.
Proof. intros H [|a [|c [|? ?]]]; simpl; try tauto. intros (Ha & Hc & _). auto. Qed.

Record embeds (v' v : view) (f : list Z -> list Z) : Prop := {
  emb_wfv : wfv v';
  emb_addr : forall j, inb (dims v') j -> addr v' j = addr v (f j);
  emb_inb : forall j, inb (dims v') j -> inb (dims v) (f j);
  emb_inj : forall j, inb (dims v') j -> forall j', inb (dims v') j' -> f j = f j' -> j = j' }.

Lemma embeds_refl v : wfv v -> embeds v v (fun j => j).
Proof. constructor; auto. Qed.
Lemma embeds_trans v0 v1 v2 f g : embeds v1 v0 f -> embeds v2 v1 g -> embeds v2 v0 (fun j => f (g j)).
Proof.
  intros [_ Fa Fb Fi] [Gw Ga Gb Gi]. constructor; [exact Gw| | |].
  - intros j Hj. rewrite Ga, Fa; auto.
  - auto.
  - intros j Hj j' Hj' E. apply Gi; auto.
Qed.

Fixpoint slice_dims (l : list ix) (ds : list Z) : list Z :=
  match l, ds with
  | IS i :: l', d :: ds' => slice_dims l' ds'
  | IR bb ee st :: l', d :: ds' => Z.quot (res d ee + st - res d bb) st :: slice_dims l' ds'
  | _, _ => []
  end.

Lemma slice_go_spec : forall l ds ss b,
  let '(b', nd, ns) := slice_go l ds ss b in
  length nd = length ns /\ (length ds = length ss -> nd = slice_dims l ds) /\
  forall j, b' + lin j ns = b + lin (den_slice l ds j) ss.
Proof.
  (* where an argument list has run out, [slice_go], [slice_dims], [den_slice] and [lin] all stop *)
  induction l as [|[i|bb ee st] l IH]; intros [|d ds] [|s ss] b;
    try (split; [reflexivity|split; [discriminate || reflexivity|intros []; reflexivity]]);
    cbn [slice_go slice_dims den_slice].
  - specialize (IH ds ss (b + res d i * s)). destruct (slice_go l ds ss _) as [[b' nd] ns].
    destruct IH as (El & Ed & Ea). repeat split; auto. intros j. rewrite Ea. cbn [lin]. lia.
  - specialize (IH ds ss (b + res d bb * s)). destruct (slice_go l ds ss _) as [[b' nd] ns].
    destruct IH as (El & Ed & Ea). split; [simpl; congruence|]. split; [intros [= E]; f_equal; auto|].
    intros [|jj j]; [specialize (Ea []); destruct ns|specialize (Ea j)]; cbn [lin] in *; lia.
Qed.
Lemma slice_spec v l :
  wfv (slice v l) /\ (wfv v -> dims (slice v l) = slice_dims l (dims v)) /\
  forall j, addr (slice v l) j = addr v (den_slice l (dims v) j).
Proof. unfold wfv, addr, slice. pose proof (slice_go_spec l (dims v) (strides v) (base v)) as H.
  destruct (slice_go l (dims v) (strides v) (base v)) as [[b' nd] ns]. exact H. Qed.
Lemma adm_range d bb ee st jj : adm_ix d (IR bb ee st) = true -> 0 <= jj ->
  1 <= Z.quot (res d ee + st - res d bb) st /\
  (jj < Z.quot (res d ee + st - res d bb) st -> 0 <= res d bb + st * jj < d).
Proof.
  unfold adm_ix. intros H Hj.
  assert ((0 < st /\ res d bb <= res d ee) \/ (st < 0 /\ res d ee <= res d bb)) as [[Hs Hbe]|[Hs Hbe]] by lia.
  - pose proof (ap_count_pos _ _ _ 0 Hs Hbe). pose proof (ap_count_pos _ _ _ jj Hs Hbe). nia.
  - pose proof (ap_count_neg _ _ _ 0 Hs Hbe). pose proof (ap_count_neg _ _ _ jj Hs Hbe). nia.
Qed.
Lemma adm_slice_Forall2 : forall l ds, adm_slice l ds = true -> Forall2 (fun x d => adm_ix d x = true) l ds.
Proof.
  induction l as [|x l IH]; intros [|d ds] H; try discriminate; [constructor|].
  apply andb_true_iff in H. destruct H. constructor; auto.
Qed.

Theorem slice_extents_positive : forall l ds, adm_slice l ds = true -> Forall (fun d => 1 <= d) (slice_dims l ds).
Proof.
  intros l ds Ha. apply adm_slice_Forall2 in Ha. induction Ha as [|x d l ds Hx _ IH]; [constructor|].
  destruct x as [i|bb ee st]; cbn [slice_dims]; [exact IH|]. constructor; [|exact IH].
  apply (adm_range d bb ee st 0 Hx (Z.le_refl 0)).
Qed.
(* one index at a time: a scalar argument pins the parent's index, a range argument sends jj to begin + stride * jj, inside the
   extent by [adm_range] and one-to-one since the stride is not zero *)
Theorem slice_box : forall l ds, adm_slice l ds = true -> forall j, inb (slice_dims l ds) j ->
  inb ds (den_slice l ds j) /\ forall j', inb (slice_dims l ds) j' -> den_slice l ds j = den_slice l ds j' -> j = j'.
Proof.
  intros l ds Ha. apply adm_slice_Forall2 in Ha. induction Ha as [|x d l ds Hx _ IH]; intros j Hj.
  - split; [exact I|]. intros j' Hj' _. destruct j, j'; try contradiction. reflexivity.
  - destruct x as [i|bb ee st]; cbn [slice_dims den_slice inb] in *.
    + destruct (IH j Hj) as [Hb Hi]. split; [split; [unfold adm_ix in Hx; lia|exact Hb]|]. intros j' Hj' [= E]. auto.
    + destruct j as [|jj j]; [contradiction|]. destruct Hj as [Hjj Hj]. destruct (IH j Hj) as [Hb Hi].
      split; [split; [apply (adm_range d bb ee st jj Hx); lia|exact Hb]|].
      intros [|jj' j'] Hj' [= E1 E]; [contradiction|]. assert (st <> 0) by (unfold adm_ix in Hx; lia).
      f_equal; [nia|]. apply Hi; tauto.
Qed.
Lemma slice_embeds v l : wfv v -> adm_slice l (dims v) = true -> embeds (slice v l) v (den_slice l (dims v)).
Proof.
  intros Hw Ha. destruct (slice_spec v l) as (Hw' & Ed & Hadr).
  constructor; [exact Hw'|auto| |]; rewrite (Ed Hw); intros j Hj; apply (slice_box l _ Ha j Hj).
Qed.

(* what the bounds-checked build raises on *)
Definition bad_ix (d : Z) (x : ix) : Prop :=
  match x with IS i => ~ (0 <= res d i < d)
             | IR bb ee _ => ~ (0 <= res d bb < d) \/ ~ (0 <= res d ee < d) end.
Lemma chk_ix_false d x : chk_ix d x = false <-> bad_ix d x.
Proof. destruct x; unfold chk_ix, bad_ix; lia. Qed.
Lemma chk_slice_false : forall l ds,
  chk_slice l ds = false <-> exists k x d, nth_error l k = Some x /\ nth_error ds k = Some d /\ bad_ix d x.
Proof.
  induction l as [|x l IH]; intros [|d ds]; cbn [chk_slice].
  (* a list has run out: nothing is tested, and no position has an argument and an extent *)
  1-3: split; [discriminate|]; intros ([|k] & ? & ? & H1 & H2 & _); discriminate.
  rewrite andb_false_iff, chk_ix_false, (IH ds). split.
  - intros [H|(k & H)]; [exists O, x, d; auto|exists (S k); exact H].
  - intros ([|k] & x' & d' & H1 & H2 & H3); [injection H1 as ->; injection H2 as ->; auto|right; exists k, x', d'; auto].
Qed.

Notation prod l := (fold_right Z.mul 1 l).
Lemma lin_packed_strides : forall ds idx, lin idx (packed_strides ds) = lin_packed ds idx.
Proof. induction ds as [|d ds IH]; intros [|i idx]; simpl; try reflexivity. rewrite IH. reflexivity. Qed.
Lemma packed_strides_length ds : length (packed_strides ds) = length ds.
Proof. induction ds as [|d ds IH]; simpl; [reflexivity|]. f_equal. exact IH. Qed.
Lemma addr_parent ds idx : addr (parent ds) idx = lin_packed ds idx.
Proof. apply lin_packed_strides. Qed.
Lemma parent_wfv ds : wfv (parent ds).
Proof. symmetry. apply packed_strides_length. Qed.
Lemma lin_scale c : forall idx ss, lin idx (map (fun p => p * c) ss) = lin idx ss * c.
Proof. induction idx as [|i idx IH]; intros [|s ss]; simpl; try reflexivity. rewrite IH. lia. Qed.

Lemma reshape_strides_cons d d' nd s0 :
  reshape_strides (d :: d' :: nd) s0 =
  match reshape_strides (d' :: nd) s0 with s' :: ss => d' * s' :: s' :: ss | [] => [] end.
Proof. reflexivity. Qed.
Lemma reshape_strides_packed s0 : forall nd, reshape_strides nd s0 = map (fun p => p * s0) (packed_strides nd).
Proof.
  induction nd as [|d [|d' nd'] IH]; [reflexivity|simpl; f_equal; lia|].
  rewrite reshape_strides_cons, IH. cbn [packed_strides map fold_right]. f_equal. lia.
Qed.
Lemma lin_packed_bound : forall nd j, inb nd j -> 0 <= lin_packed nd j < prod nd.
Proof. induction nd as [|d nd IH]; intros [|i j] H; simpl in *; try contradiction; [lia|].
  destruct H as [Hi Hj]. specialize (IH j Hj). nia. Qed.
Lemma lin_packed_inj : forall nd j j', inb nd j -> inb nd j' -> lin_packed nd j = lin_packed nd j' -> j = j'.
Proof. induction nd as [|d nd IH]; intros [|i j] [|i' j'] H H' E; simpl in *; try contradiction; [reflexivity|].
  destruct H as [_ Hj]. destruct H' as [_ Hj'].
  apply radix_inj in E as [-> E]; auto using lin_packed_bound. f_equal. apply IH; assumption. Qed.

Lemma index_of_head k p : index_of k (k :: p) = O.
Proof. simpl. rewrite Nat.eqb_refl. reflexivity. Qed.
Lemma index_of_tail k h p : h <> k -> index_of k (h :: p) = S (index_of k p).
Proof. intros H. simpl. destruct (Nat.eqb_spec h k); [contradiction|reflexivity]. Qed.
Lemma index_of_nth k p : In k p -> nth (index_of k p) p O = k /\ (index_of k p < length p)%nat.
Proof. induction p as [|h p IH]; intros H; [contradiction|]. simpl. destruct (Nat.eqb_spec h k) as [->|Hne].
  - split; [reflexivity|lia]. - destruct H as [H|H]; [contradiction|]. destruct (IH H). split; [assumption|lia]. Qed.
Lemma index_of_nth_NoDup p : NoDup p -> forall i, (i < length p)%nat -> index_of (nth i p O) p = i.
Proof. induction 1 as [|h p Hnot HND IH]; intros [|i] Hi; simpl in Hi; [lia..|apply index_of_head|]. cbn [nth].
  rewrite index_of_tail; [f_equal; apply IH; lia|]. intros ->. apply Hnot, nth_In. lia. Qed.

(* [permute] reads extents and strides at the positions p names.  A sum of products, or a conjunction of bounds, over
   two lists read at the same positions does not depend on the order of the positions *)
Lemma lin_map_perm (f g : nat -> Z) p p' : Permutation p p' -> lin (map f p) (map g p) = lin (map f p') (map g p').
Proof. induction 1; cbn [map lin]; lia. Qed.
Lemma inb_map_perm (f g : nat -> Z) p p' : Permutation p p' -> inb (map f p) (map g p) -> inb (map f p') (map g p').
Proof. induction 1; cbn [map inb]; tauto. Qed.

Definition is_perm (p : list nat) (n : nat) : Prop := length p = n /\ (forall k, In k p -> (k < n)%nat) /\ NoDup p.
Lemma is_perm_Permutation p n : is_perm p n -> Permutation p (seq 0 n).
Proof. intros (Hl & Hlt & HND). apply NoDup_Permutation_bis; [exact HND|rewrite seq_length; lia|].
  intros k Hk. apply in_seq. specialize (Hlt k Hk). lia. Qed.
Lemma adm_permute_is_perm v p : adm_op v (OPermute p) = true -> is_perm p (length (dims v)).
Proof. unfold adm_op. rewrite !andb_true_iff, !Nat.eqb_eq, forallb_forall. intros [[H1 H2] H3]. repeat split.
  - exact H1. - intros k Hk. apply Nat.ltb_lt. apply H2. exact Hk. - exact (NoDup_of_nodup_length _ p H3). Qed.
(* old dimension p[i] received j[i]: the denoted parent index, read at the positions p, is j again *)
Lemma den_permute_at v p j : adm_op v (OPermute p) = true -> inb (dims (permute v p)) j ->
  map (fun k => nth k (den_op v (OPermute p) j) 0) p = j.
Proof.
  intros Ha Hj. destruct (adm_permute_is_perm v p Ha) as (Hl & Hlt & HND).
  apply inb_length in Hj. cbn [permute dims] in Hj. rewrite map_length in Hj.
  apply (nth_ext _ _ 0 0); rewrite map_length; [lia|]. intros i Hi. cbn [den_op].
  rewrite (nth_map_in _ p i 0 O), nth_map_seq0, index_of_nth_NoDup by auto using nth_In. reflexivity.
Qed.
Lemma permute_embeds v p : wfv v -> adm_op v (OPermute p) = true -> embeds (permute v p) v (den_op v (OPermute p)).
Proof.
  (* an index j of the permuted view is its parent index read at the positions p, as its extents and strides are the
     parent's read there; and p visits every position once *)
  intros Hw Ha. pose proof (fun j => den_permute_at v p j Ha) as Hden.
  pose proof (is_perm_Permutation p _ (adm_permute_is_perm v p Ha)) as HPP.
  assert (forall j, length (den_op v (OPermute p) j) = length (dims v)) as Hl by (intros j; cbn [den_op]; rewrite map_length, seq_length; reflexivity).
  constructor.
  - unfold wfv. cbn [permute dims strides]. rewrite !map_length. reflexivity.
  - intros j Hj. unfold addr. cbn [permute base strides]. f_equal. rewrite <- (Hden j Hj) at 1.
    rewrite (lin_map_perm _ _ _ _ HPP), Hw, !map_nth_seq by (rewrite ?Hl; auto). reflexivity.
  - intros j Hj. pose proof (Hden j Hj) as E. rewrite <- E in Hj.
    apply (inb_map_perm _ _ _ _ HPP) in Hj. rewrite !map_nth_seq in Hj by (rewrite ?Hl; auto). exact Hj.
  - intros j Hj j' Hj' E. rewrite <- (Hden j Hj), <- (Hden j' Hj'), E. reflexivity.
Qed.

Lemma index0_embeds b d ds s ss i : length ds = length ss -> 0 <= res d i < d ->
  let v := mkView b (d :: ds) (s :: ss) in embeds (index0 v i) v (den_op v (OIndex0 i)).
Proof.
  intros Hw Hi. constructor; unfold addr; cbn [index0 den_op dims strides base lin inb].
  - exact Hw.
  - lia.
  - intros j Hj. split; [exact Hi|exact Hj].
  - intros j _ j' _ E. injection E as E. exact E.
Qed.
Lemma transpose_embeds b d0 d1 s0 s1 :
  let v := mkView b [d0; d1] [s0; s1] in embeds (transpose v) v (den_op v OTranspose).
Proof.
  constructor; [reflexivity|..]; unfold addr; cbn [transpose den_op dims strides base]; refine (inb2_all _ _ _ _); intros a c ? ?.
  - cbn [lin]. lia.
  - cbn [inb]. lia.
  - refine (inb2_all _ _ _ _). congruence.
Qed.
Lemma diag_embeds b d0 d1 s0 s1 k :
  let v := mkView b [d0; d1] [s0; s1] in embeds (diag_vector v k) v (den_op v (ODiag k)).
Proof.
  unfold diag_vector, den_op. cbn [dims strides base].
  (* field by field; the two signs of k take the same steps *)
  constructor; unfold addr.
  - destruct (0 <=? k); reflexivity.
  - destruct (Z.leb_spec 0 k); cbn [dims strides base]; refine (inb1_all _ _ _); intros a ?; cbn [lin]; lia.
  - destruct (Z.leb_spec 0 k); refine (inb1_all _ _ _); intros a ?; cbn [dims inb]; lia.
  - destruct (Z.leb_spec 0 k); refine (inb1_all _ _ _); intros a ?; refine (inb1_all _ _ _); intros a' ? [= ? ?]; f_equal; lia.
Qed.
Lemma subdiag_embeds b d0 d1 s0 s1 ib ie : 0 <= ib /\ ie < d0 /\ ie < d1 ->
  let v := mkView b [d0; d1] [s0; s1] in embeds (submatrix_on_diagonal v ib ie) v (den_op v (OSubDiag ib ie)).
Proof.
  intros Hi. constructor; [reflexivity|..]; unfold addr; cbn [submatrix_on_diagonal den_op dims strides base];
    refine (inb2_all _ _ _ _); intros a c ? ?.
  - cbn [lin]. lia.
  - cbn [inb]. lia.
  - refine (inb2_all _ _ _ _). intros a' c' ? ? [= ? ?]. repeat f_equal; lia.
Qed.
Lemma reshape_embeds b s0 nd :
  let v := mkView b [prod nd] [s0] in embeds (reshape v nd) v (den_op v (OReshape nd)).
Proof.
  constructor; unfold wfv, addr; cbn [reshape den_op dims strides base].
  - rewrite reshape_strides_packed, map_length, packed_strides_length. reflexivity.
  - intros j _. rewrite reshape_strides_packed, lin_scale, lin_packed_strides. cbn [lin]. lia.
  - intros j Hj. pose proof (lin_packed_bound nd j Hj). cbn [inb]. lia.
  - intros j Hj j' Hj' E. injection E. apply lin_packed_inj; assumption.
Qed.

Theorem op_embeds v o : wfv v -> adm_op v o = true -> embeds (apply_op v o) v (den_op v o).
Proof.
  destruct o as [l|i| |p|k|ib ie|nd| ]; cbn [apply_op];
    [apply slice_embeds| | |apply permute_embeds| | | |intros; apply embeds_refl; assumption];
    destruct v as [b ds ss]; unfold wfv, adm_op; cbn [dims strides]; intros Hw Ha.
  (* T, diag_vector and submatrix_on_diagonal are admissible on matrices only *)
  2-4: destruct ds as [|d0 [|d1 [|? ?]]]; try discriminate Ha; destruct ss as [|s0 [|s1 [|? ?]]]; try discriminate Hw.
  - destruct ds as [|d [|d2 ds]]; try discriminate Ha. destruct ss as [|s ss]; try discriminate Hw.
    injection Hw as Hw. apply index0_embeds; [exact Hw|lia].
  - apply transpose_embeds.
  - apply diag_embeds.
  - apply subdiag_embeds. lia.
  - destruct ds as [|d [|? ?]]; try discriminate Ha. destruct ss as [|s0 [|? ?]]; try discriminate Hw.
    assert (d = prod nd) as -> by lia. apply reshape_embeds.
Qed.

Theorem ops_embeds : forall os v, wfv v -> adm_ops v os = true -> embeds (apply_ops v os) v (den_ops v os).
Proof.
  induction os as [|o os IH]; intros v Hw Ha; [apply embeds_refl, Hw|].
  apply andb_true_iff in Ha. destruct Ha as [Ha1 Ha2]. pose proof (op_embeds v o Hw Ha1) as Ho.
  exact (embeds_trans _ _ _ _ _ Ho (IH _ (emb_wfv _ _ _ Ho) Ha2)).
Qed.
