(* C01_table: the derivative expressions that the translator reads from UnaryOperation.h, and the hand-written
   partial derivatives Expr.dleft / Expr.dright to which ExprProofs.policy_sem reduces the rules read from
   BinaryOperation.h, are the true derivatives over the real numbers, on the open domain of each function
   (exactly, or within a stated relative error where the source uses a decimal constant). *)
From Coq Require Import Reals Lra.
From Coquelicot Require Import Coquelicot.
From Interval Require Import Tactic.
From Adept Require Export RealOps.
From Adept Require Import Scalar ExprDefs Expr.
From AdeptGen Require Import Gen_Ops.
Local Open Scope R_scope.

Definition Rf1 (f : fname) (x : R) : R :=
  match f with
  | F_log => ln x | F_log10 => ln x / ln 10 | F_log2 => ln x / ln 2 | F_log1p => ln (1 + x)
  | F_sin => sin x | F_cos => cos x | F_tan => tan x | F_atan => atan x
  | F_sinh => sinh x | F_cosh => cosh x | F_tanh => tanh x
  | F_abs => Rabs x | F_fabs => Rabs x | F_sqrt => sqrt x
  | F_exp => exp x | F_fastexp => exp x | F_expm1 => exp x - 1 | F_exp2 => exp (x * ln 2)
  | F_asinh => ln (x + sqrt (x * x + 1)) | F_acosh => ln (x + sqrt (x * x - 1)) | F_atanh => / 2 * ln ((1 + x) / (1 - x))
  | F_uplus => x | F_uminus => - x | F_fast_sqr => x * x
  | _ => 0      (* asin acos erf erfc cbrt and the rounding functions: no real-analysis counterpart used here *)
  end.
Definition Rf2 (f : fname) (x y : R) : R := match f with F_pow => Rpower x y | _ => 0 end.
Definition RF : FOps R := mkFOps R RO Rf1 Rf2 (fun n d => IZR n / IZR d).

(* reduces a table entry [un_derivative RF f x r] to the real expression it denotes; the real functions stay folded *)
Ltac table := unfold un_derivative; cbv beta iota delta [Rf1]; cbn [un_der eval_m RF RO f1 flit fbase Rf1 oadd osub omul odiv oneg o0 o1 oltb].

(* the functions whose table entry needs no fact beyond the domain itself: entire ones, and the logarithms on their half-lines *)
Definition plain_domain (f : fname) (x : R) : Prop :=
  match f with
  | F_sin | F_cos | F_sinh | F_cosh | F_exp | F_fastexp | F_expm1 | F_uplus | F_uminus => True
  | F_log => 0 < x | F_log1p => -1 < x
  | _ => False
  end.
Theorem table_plain f x : plain_domain f x -> is_derive (Rf1 f) x (un_derivative RF f x (Rf1 f x)).
Proof. destruct f; try contradiction; cbn [plain_domain]; intros H; table; (auto_derive; [first [exact I|lra]|field; lra]). Qed.
Theorem table_tan x : cos x <> 0 -> is_derive (Rf1 F_tan) x (un_derivative RF F_tan x (Rf1 F_tan x)).
Proof. intros H. table. unfold tan. auto_derive; [exact H|]. field_simplify; [|exact H|exact H]. rewrite <- (sin2_cos2 x) at 1. unfold Rsqr. field. exact H. Qed.
Theorem table_atan x : is_derive (Rf1 F_atan) x (un_derivative RF F_atan x (Rf1 F_atan x)).
Proof. table. auto_derive; [exact I|]. field. nra. Qed.
Theorem table_tanh x : is_derive (Rf1 F_tanh) x (un_derivative RF F_tanh x (Rf1 F_tanh x)).
Proof.
  table. unfold tanh. assert (cosh x <> 0) as H by (unfold cosh; pose proof (exp_pos x); pose proof (exp_pos (- x)); lra).
  auto_derive; [exact H|]. field. exact H.
Qed.
Theorem table_sqrt x : 0 < x -> is_derive (Rf1 F_sqrt) x (un_derivative RF F_sqrt x (Rf1 F_sqrt x)).
Proof. intros H. table. auto_derive; [exact H|]. field. apply Rgt_not_eq, sqrt_lt_R0. exact H. Qed.
Theorem table_abs x : x <> 0 -> is_derive (Rf1 F_abs) x (un_derivative RF F_abs x (Rf1 F_abs x)) /\
                                is_derive (Rf1 F_fabs) x (un_derivative RF F_fabs x (Rf1 F_fabs x)).
Proof.
  intros H. table. unfold Rltb. rewrite Rdiv_1.
  assert (is_derive Rabs x (sign x)) as D by (auto_derive; [exact H|ring]).
  destruct (Rlt_dec 0 x) as [P|NP]; destruct (Rlt_dec x 0) as [N|NN]; try lra.
  - rewrite sign_eq_1 in D by exact P. rewrite Rminus_0_r. split; exact D.
  - rewrite sign_eq_m1 in D by exact N. rewrite Rminus_0_l. split; exact D.
Qed.
Theorem table_asinh x : is_derive (Rf1 F_asinh) x (un_derivative RF F_asinh x (Rf1 F_asinh x)).
Proof.
  table. assert (0 < x * x + 1) as H1 by nra. assert (0 < sqrt (x * x + 1)) as H2 by (apply sqrt_lt_R0; exact H1).
  (* the square root exceeds |x|, its square being x * x + 1 *)
  assert (0 < x + sqrt (x * x + 1)) as H3 by (pose proof (sqrt_sqrt (x * x + 1) ltac:(lra)); nra).
  auto_derive; [repeat split; lra|]. rewrite !Rdiv_1. field. split; lra.
Qed.
Theorem table_atanh x : -1 < x < 1 -> is_derive (Rf1 F_atanh) x (un_derivative RF F_atanh x (Rf1 F_atanh x)).
Proof.
  intros H. table. assert (0 < (1 + x) / (1 - x)) as H1 by (apply Rdiv_lt_0_compat; lra).
  auto_derive; [split; [lra|split; [exact H1|exact I]]|]. field. repeat split; nra.
Qed.
(* entries whose source carries a decimal constant c where the derivative has k = 1 / ln 10, 1 / ln 2 or ln 2: table value
   c * g against derivative k * g, within 1e-15 relatively as soon as c is that close to k.  60 bits of precision decide the comparison. *)
Lemma scaled_entry (f : R -> R) x c k g eps : is_derive f x (k * g) -> Rabs (c - k) <= eps * Rabs k ->
  exists d, is_derive f x d /\ Rabs (c * g - d) <= eps * Rabs d.
Proof.
  intros D H. exists (k * g). split; [exact D|].
  rewrite <- Rmult_minus_distr_r, !Rabs_mult, <- Rmult_assoc. apply Rmult_le_compat_r; [apply Rabs_pos|exact H].
Qed.
Theorem table_log10 x : 0 < x -> exists d, is_derive (Rf1 F_log10) x d /\ Rabs (un_derivative RF F_log10 x (Rf1 F_log10 x) - d) <= 1/1000000000000000 * Rabs d.
Proof.
  intros H. assert (0 < ln 10) as L by (rewrite <- ln_1; apply ln_increasing; lra).
  table. apply scaled_entry with (k := 1 / ln 10).
  - auto_derive; [exact H|field; lra].
  - interval with (i_prec 60).
Qed.
Theorem table_log2 x : 0 < x -> exists d, is_derive (Rf1 F_log2) x d /\ Rabs (un_derivative RF F_log2 x (Rf1 F_log2 x) - d) <= 1/1000000000000000 * Rabs d.
Proof.
  intros H. pose proof ln_lt_2 as L.
  table. apply scaled_entry with (k := 1 / ln 2).
  - auto_derive; [exact H|field; lra].
  - interval with (i_prec 60).
Qed.
Theorem table_exp2 x : exists d, is_derive (Rf1 F_exp2) x d /\ Rabs (un_derivative RF F_exp2 x (Rf1 F_exp2 x) - d) <= 1/1000000000000000 * Rabs d.
Proof.
  table. apply scaled_entry with (k := ln 2).
  - auto_derive; [exact I|ring].
  - interval with (i_prec 60).
Qed.

Theorem partial_ring k x y : match k with KAdd | KSub | KMul => True | _ => False end ->
  is_derive (fun t => bop RF k t y) x (dleft RF k x y) /\ is_derive (fun t => bop RF k x t) y (dright RF k x y).
Proof. destruct k; try contradiction; intros _; cbn; split; (auto_derive; [exact I|ring]). Qed.
Theorem partial_div x y : y <> 0 -> is_derive (fun t => bop RF KDiv t y) x (dleft RF KDiv x y) /\ is_derive (fun t => bop RF KDiv x t) y (dright RF KDiv x y).
Proof. intros H. cbn. split; (auto_derive; [first [exact I|exact H]|field; exact H]). Qed.
Theorem partial_pow x y : 0 < x -> is_derive (fun t => bop RF KPow t y) x (dleft RF KPow x y) /\ is_derive (fun t => bop RF KPow x t) y (dright RF KPow x y).
Proof.
  intros H. cbn. unfold Rpower. split; auto_derive; try exact H; try exact I.
  - replace ((y - 1 / 1) * ln x) with (y * ln x + - ln x) by field. rewrite exp_plus, exp_Ropp, exp_ln by exact H. lra.
  - ring.
Qed.
