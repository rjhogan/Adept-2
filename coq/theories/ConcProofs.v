(* The lemmas from which Properties_C14.v and Properties_C12.v prove the following.
   C14: with add_link = one atomic increment and remove_link = check, then one atomic decrement whose result decides
   deletion, every interleaving of any number of threads frees the shared Storage exactly once, when and only when the
   last holder has gone, and never touches it afterwards.  C12: threads that touch only their own state compute, under
   every schedule, what they compute alone; a plain counter incremented by two threads loses updates. *)
From Coq Require Import ZArith List Lia.
From Adept Require Import ListProofs Conc.
Import ListNotations.
Local Open Scope Z_scope.

Lemma set_nth_length {A} k (x : A) l : length (set_nth k x l) = length l.
Proof. apply ListProofs.length_set_nth. Qed.
Lemma nth_set_nth_same {A} k (x d : A) l : (k < length l)%nat -> nth k (set_nth k x l) d = x.
Proof. apply ListProofs.nth_set_nth_same. Qed.
Lemma nth_set_nth_other {A} k j (x d : A) l : j <> k -> nth j (set_nth k x l) d = nth j l d.
Proof. apply ListProofs.nth_set_nth_other. Qed.
Lemma sum_held_set_nth k t l : (k < length l)%nat -> sum_held (set_nth k t l) = sum_held l - held (nth k l dead_thr) + held t.
Proof. intros H. exact (sum_set_nth sum_held held (fun _ _ => eq_refl) k _ t l (nth_error_nth' l dead_thr H)). Qed.
Lemma todo_total_set_nth k m l n : nth_error l k = Some n -> todo_total (set_nth k m l) = todo_total l - Z.of_nat n + Z.of_nat m.
Proof. apply (sum_set_nth todo_total Z.of_nat (fun _ _ => eq_refl)). Qed.
Lemma sum_held_nonneg l : Forall (fun t => 0 <= held t) l -> 0 <= sum_held l.
Proof. unfold sum_held. induction 1 as [|h r Hh _ IH]; cbn [fold_right]; lia. Qed.
Lemma held_le_sum l k : Forall (fun t => 0 <= held t) l -> (k < length l)%nat -> held (nth k l dead_thr) <= sum_held l.
Proof.
  (* the others, thread k set idle, still hold a non-negative number *)
  intros H Hk. pose proof (sum_held_nonneg _ (Forall_set_nth _ k dead_thr l H (Z.le_refl 0))) as H0.
  rewrite sum_held_set_nth in H0 by exact Hk. cbn [held dead_thr] in H0. lia.
Qed.

Definition ADD : list mstep := [MRmw 1].
Definition REM : list mstep := [MCheckNonZero; MRmwDeleteIfZero (-1)].
(* between the check and the decrement of remove_link a thread still holds its link *)
Definition thr_ok (t : thr) : Prop := 0 <= held t /\ (pend t = [] \/ (pend t = [MRmwDeleteIfZero (-1)] /\ 0 < held t)).
Definition RInv (st : rstate) : Prop :=
  bad st = 0 /\ links st = sum_held (thrs st) /\ (freed st = 0 /\ 0 < links st \/ freed st = 1 /\ links st = 0) /\ Forall thr_ok (thrs st).

(* every micro-step of the protocol has this shape: the count and the holding of thread k move by the same amount *)
Lemma RInv_move st k t' l' f' b' : RInv st -> (k < length (thrs st))%nat -> thr_ok t' ->
  l' - links st = held t' - held (nth k (thrs st) dead_thr) -> f' = 0 /\ 0 < l' \/ f' = 1 /\ l' = 0 -> b' = 0 ->
  RInv (mkR l' f' b' (set_nth k t' (thrs st))).
Proof.
  intros (Hb & Hl & Hf & Hok) Hk Hok' Hl' Hf' ->. unfold RInv; cbn. rewrite sum_held_set_nth by exact Hk.
  repeat split; [lia|exact Hf'|apply Forall_set_nth; assumption].
Qed.

Lemma rstep_inv st k : RInv st -> RInv (rstep ADD REM st k).
Proof.
  intros HI. pose proof HI as (Hb & Hl & Hf & Hok). unfold rstep.
  destruct (Nat.lt_ge_cases k (length (thrs st))) as [Hk|Hk]; [|rewrite nth_overflow by exact Hk; exact HI].
  set (t := nth k (thrs st) dead_thr).
  destruct (proj1 (Forall_nth _ _) Hok k dead_thr Hk : thr_ok t) as [Hh Hp].
  pose proof (held_le_sum (thrs st) k (Forall_impl _ (fun t => @proj1 _ _) Hok) Hk) as Hle. fold t in Hle.
  (* a thread that holds a link keeps the Storage alive: its steps see a positive count and no deletion *)
  assert (0 < held t -> 0 < links st /\ freed st = 0) as Halive by lia.
  destruct Hp as [Hp|[Hp Hpos]]; rewrite Hp.
  - destruct (prog t) as [|o pr]; [exact HI|].
    destruct (Z.ltb_spec 0 (held t)) as [Hpos|Hnp]; [|exact HI].
    destruct (Halive Hpos) as [Hlp Hf0]. destruct o; cbn [ADD REM micro]; rewrite Hf0.
    + (* add_link *)
      apply RInv_move; [assumption|assumption|split; cbn; [lia|left; reflexivity]|cbn; fold t; lia..].
    + (* remove_link: the check finds a count that is not zero *)
      destruct (Z.eqb_spec (links st) 0) as [H0|_]; [lia|].
      apply RInv_move; [assumption|assumption|split; cbn; [lia|right; split; [reflexivity|exact Hpos]]|cbn; fold t; lia..].
  - (* remove_link: the atomic decrement, whose result decides *)
    destruct (Halive Hpos) as [Hlp Hf0]. cbn [micro]. rewrite Hf0.
    destruct (Z.eqb_spec (links st + -1) 0);
      (apply RInv_move; [assumption|assumption|split; cbn; [lia|left; reflexivity]|cbn; fold t; lia..]).
Qed.

Section PrivateProofs.
Context {L Op : Type} (lstep : L -> Op -> L).
Notation pthr := (pthr (L:=L) (Op:=Op)).
Lemma pstep1_self (ts : list pthr) k t : nth_error ts k = Some t ->
  nth_error (pstep1 lstep ts k) k = Some (match pprog t with o :: r => mkPT r (lstep (plocal t) o) | [] => t end).
Proof.
  intros H. unfold pstep1. rewrite H. destruct (pprog t) as [|o r]; [exact H|].
  apply nth_error_set_nth_same. apply nth_error_Some. congruence.
Qed.
Lemma pstep1_other (ts : list pthr) j k : j <> k -> nth_error (pstep1 lstep ts j) k = nth_error ts k.
Proof.
  intros H. unfold pstep1. destruct (nth_error ts j) as [t|]; [|reflexivity]. destruct (pprog t); [reflexivity|]. apply nth_error_set_nth_other. congruence.
Qed.
End PrivateProofs.

Definition two_incrementers : cstate := mkC 0 [mkCT [CLoad; CStoreInc] 0; mkCT [CLoad; CStoreInc] 0].
Theorem plain_counter_loses_update :
  cval (crun [0; 1; 0; 1]%nat two_incrementers) = 1 /\ racy (crun [0; 1]%nat two_incrementers) /\
  cval (crun [0; 0; 1; 1]%nat two_incrementers) = 2.
Proof.
  split; [reflexivity|]. split; [|reflexivity].
  exists 0%nat, 1%nat, (mkCT [CStoreInc] 0), (mkCT [CStoreInc] 0). repeat split; [discriminate|discriminate|exists []; reflexivity].
Qed.

