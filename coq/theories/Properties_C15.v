(* C15 — matrix multiplication returns the true product for every operand form.
   Model: Matmul.v (hand model of the reference ?gemm / ?gemv, of the row-major mapping of cppblas.cpp and of the choice
   of order, transposition and leading dimension in matmul.h; tie H: ./check C15 prints the strides of every dense
   operand pair of its sweep and compares the product BLAS returned with the extracted model on the same memory image).
   Band.v models the band kernel (?gbmv, with band-start selection) and the symmetric kernels (?symv, ?symm, with the
   choice of triangle); the numbers it uses are generated from the sources (Gen_Band.v, Gen_Engines.v).
   _partial: triangular kernels, the copy taken for operands strided both ways or with negative strides, and expression /
   fixed-size front ends are not in the model: the check compares each of those operand forms with the triple loop over
   element values (exact integer data, AddressSanitizer), which is a test.  Modelled, not verified: libblas computes
   what Matmul.f_gemm_cell / f_gemv_cell and Band.f_gbmv_cell / f_symv_cell / f_symm_cell say. *)
From Coq Require Import ZArith Bool Lia Ring_theory.
From Adept Require Import Scalar Matmul MatmulProofs Band BandProofs.
From AdeptGen Require Import Gen_Band Gen_Engines.
Local Open Scope Z_scope.

Section AnyRing.
Context {T : Type} (O : Ops T).
Hypothesis Rth : ring_theory (o0 O) (o1 O) (oadd O) (omul O) (osub O) (oneg O) (@eq T).

(* matrix x matrix: for every pair of operands that are row- or column-contiguous in any combination (row-major,
   column-major, transposed, sliced, padded, with any leading dimension), every extent and every memory content, the cell
   computed for (i,j) is the defining sum over the operands' own elements, and it is stored at (i,j) of the answer *)
Theorem C15_dense_matrix_matrix_partial : forall mem (l r : mview) i j v, adept_gemm_cell O mem l r i j = Some v ->
  v = zsum O (md1 l) (fun q => omul O (melem mem l i q) (melem mem r q j)).
Proof using Rth.
  intros mem l r i j v. unfold adept_gemm_cell. destruct (_ && _) eqn:E; [|discriminate]. intros [= <-].
  apply andb_true_iff in E. destruct E as [El Er]. unfold cppblas_gemm_cell, f_gemm_cell. apply (zsum_ext O). intros q _.
  rewrite (f_op_contig mem r q j Er), (f_op_contig mem l i q El). apply (Rmul_comm Rth).
Qed.
Theorem C15_result_placement : forall c0 cs i j, adept_gemm_addr c0 cs i j = c0 + i * cs + j.
Proof using Type. unfold adept_gemm_addr, cppblas_gemm_addr, f_gemm_addr. lia. Qed.
(* matrix x vector (vector x matrix is the same routine on the transposed matrix), any positive vector increment *)
Theorem C15_dense_matrix_vector_partial : forall mem (l : mview) (x : vview) i v, adept_gemv_cell O mem l x i = Some v ->
  v = zsum O (md1 l) (fun q => omul O (melem mem l i q) (velem mem x q)).
Proof using Type.
  intros mem l x i v. unfold adept_gemv_cell. destruct (_ && _) eqn:E; [|discriminate]. intros [= <-].
  apply andb_true_iff in E. destruct E as [El _]. pose proof (fun q => f_op_contig mem l i q El) as Hl.
  (* in either order the matrix is read as [f_op] under the flag of a contiguous operand *)
  destruct (row_contig l); apply (zsum_ext O); intros q _; rewrite <- Hl; reflexivity.
Qed.
(* active operands: the statement recorded for C(i,j) is the differential of its defining sum, for any strides of the
   operands (the gradient indices follow the same strides as the data) *)
Theorem C15_derivative_statement_partial : forall mem (l r : mview) lact ract lidx ridx i j g,
  ops_val O (gemm_statement mem l r lact ract lidx ridx i j) g =
  oadd O (if lact then zsum O (md0 r) (fun q => omul O (melem mem r q j) (g (lidx + i * ms0 l + q * ms1 l))) else o0 O)
         (if ract then zsum O (md0 r) (fun q => omul O (melem mem l i q) (g (ridx + q * ms0 r + j * ms1 r))) else o0 O).
Proof using Rth.
  intros. unfold gemm_statement. rewrite (ops_val_app O Rth). f_equal.
  - destruct lact; [|reflexivity]. rewrite ops_val_push. apply (zsum_ext O). intros q _. unfold melem. do 2 f_equal. lia.
  - destruct ract; [|reflexivity]. rewrite ops_val_push. apply (zsum_ext O). intros q _. unfold melem. do 2 f_equal. lia.
Qed.
(* band matrix x vector through ?gbmv: with the start pointer, leading dimension, (KL,KU) and wrapper arguments GENERATED from
   matmul.h / cppblas.cpp on every run (Gen_Band.v) and the engine layout generated from SpecialMatrix.h (Gen_Engines.v), row
   i of the result is the defining sum over the stored band, for both storage orders, every dimension and every L, U >= 0 *)
Theorem C15_band_matrix_vector_partial : forall (row_major : bool) (L U dim : Z) (mem : Z -> T) (left_ptr x0 incx i : Z),
  0 <= L -> 0 <= U -> 0 <= i < dim ->
  adept_band_mv O row_major L U dim mem left_ptr (pack_offset (if row_major then BandR else BandC) L U dim) x0 incx i
  = band_mv_spec O row_major L U dim mem left_ptr (pack_offset (if row_major then BandR else BandC) L U dim) x0 incx i.
Proof using Type. intros. apply band_mv_correct. Qed.

(* band matrix x dense matrix (one ?gbmv per column of the right operand, start pointers and increments translated from
   matmul_band): element (i, c) is the defining sum over the stored band, written at y0 + i*aoff0 + c*aoff1 *)
Theorem C15_band_matrix_matrix_partial : forall (row_major : bool) (L U dim : Z) (mem : Z -> T) (left_ptr x0 roff0 roff1 i c : Z),
  (0 <= L)%Z -> (0 <= U)%Z -> (0 <= i < dim)%Z ->
  adept_band_mm O row_major L U dim mem left_ptr (pack_offset (if row_major then BandR else BandC) L U dim) x0 roff0 roff1 i c
  = band_mm_spec O row_major L U dim mem left_ptr (pack_offset (if row_major then BandR else BandC) L U dim) x0 roff0 roff1 i c.
Proof using Type. intros. apply band_mm_correct. Qed.
Theorem C15_band_matrix_matrix_result_address : forall y0 aoff0 aoff1 i c, band_mm_result_addr y0 aoff0 aoff1 i c = (y0 + i * aoff0 + c * aoff1)%Z.
Proof using Type. unfold band_mm_result_addr, band_mm_y_start, band_mm_incy. lia. Qed.
(* symmetric matrix (either storage orientation) x vector through ?symv: the triangle letter chosen in matmul_symmetric and the
   exchange made by the wrapper for row-major calls (both GENERATED from the sources) select exactly the triangle the
   symmetric engine stores; row i of the result is the full defining sum, for every n and every engine offset *)
Theorem C15_symmetric_matrix_vector_partial : forall (row_lower_col_upper : bool) (n : Z) (mem : Z -> T) (left_ptr left_offset x0 incx i : Z),
  adept_symm_mv O row_lower_col_upper n mem left_ptr left_offset x0 incx i = symm_mv_spec O row_lower_col_upper n mem left_ptr left_offset x0 incx i.
Proof using Type.
  intros. unfold adept_symm_mv, symm_mv_spec, f_symv_cell, symv_lda. apply (zsum_ext O). intros j _.
  rewrite <- symv_read_engine. destruct row_lower_col_upper; reflexivity.
Qed.
(* symmetric matrix (either orientation) x matrix (row- or column-contiguous) through ?symm: cell (i,j) is the defining sum and
   is stored at (i,j) of the answer in the answer's own order; settles the "FIX! CHECK ROW MAJOR VERSION IS RIGHT" of
   cppblas.cpp (it is right) *)
Theorem C15_symmetric_matrix_matrix_partial : forall (row_lower right_row : bool) (M N : Z) (mem : Z -> T) (left_ptr left_offset b0 rs i j : Z),
  adept_symm_mm O row_lower right_row M N mem left_ptr left_offset b0 rs i j = symm_mm_spec O row_lower right_row M mem left_ptr left_offset b0 rs i j.
Proof using Rth.
  intros. unfold adept_symm_mm, symm_mm_spec, cppblas_symm_cell, symm_call_side_left, right_elem.
  destruct right_row; cbn [symm_row_major_args symm_col_major_args negb f_symm_cell]; apply (zsum_ext O); intros k _; rewrite <- symv_read_engine.
  - (* row-major call: side Right on the transposed problem *)
    rewrite (Rmul_comm Rth), symv_read_sym. destruct row_lower; do 2 f_equal; lia.
  - destruct row_lower; reflexivity.
Qed.
Theorem C15_symmetric_result_placement : forall (right_row : bool) (c0 cs i j : Z),
  cppblas_symm_addr right_row c0 cs i j = if right_row then c0 + i * cs + j else c0 + i + j * cs.
Proof using Type. intros. unfold cppblas_symm_addr, f_symm_addr. destruct right_row; lia. Qed.
(* active right-hand vector: the statement recorded for row i of (band matrix) x vector - window of columns, multiplier address
   and stride, gradient index and stride all GENERATED from matmul_band - is the differential of the defining sum over the
   engine's stored window, for any stride of the vector *)
Theorem C15_band_derivative_statement_partial : forall (row_major : bool) (L U dim : Z) (mem : Z -> T) (left_ptr off right_index incx i : Z) (g : Z -> T),
  ops_val O (band_statement row_major L U dim mem left_ptr off right_index incx i) g =
  zsum O (band_j_end i U dim - band_j_start i L)
       (fun q => omul O (mem (left_ptr + index (if row_major then BandR else BandC) L U i (band_j_start i L + q) off))
                        (g (right_index + (band_j_start i L + q) * incx))).
Proof using Type.
  intros. unfold band_statement. rewrite ops_val_push. apply (zsum_ext O). intros q _.
  unfold band_index_start, band_index_stride, band_grad_start, band_grad_stride, index. destruct row_major; do 2 f_equal; lia.
Qed.
End AnyRing.
Print Assumptions C15_band_derivative_statement_partial.
Print Assumptions C15_symmetric_matrix_matrix_partial.
Print Assumptions C15_symmetric_result_placement.
Print Assumptions C15_symmetric_matrix_vector_partial.
Print Assumptions C15_band_matrix_vector_partial.
Print Assumptions C15_band_matrix_matrix_partial.
Print Assumptions C15_band_matrix_matrix_result_address.
Print Assumptions C15_dense_matrix_matrix_partial.
Print Assumptions C15_result_placement.
Print Assumptions C15_dense_matrix_vector_partial.
Print Assumptions C15_derivative_statement_partial.

(* non-vacuity: a 2x2 row-major left operand at address 0 times a column-major right operand at address 10 *)
Example C15_example :
  let mem := fun a => match a with 0 => 1 | 1 => 2 | 2 => 3 | 3 => 4 | 10 => 5 | 11 => 6 | 12 => 7 | 13 => 8 | _ => 0 end in
  adept_gemm_cell ZOps mem (mkMV 0 2 1 2 2) (mkMV 10 1 2 2 2) 0 1 = Some (1 * 7 + 2 * 8) /\
  adept_gemm_cell ZOps mem (mkMV 0 2 1 2 2) (mkMV 10 1 2 2 2) 1 0 = Some (3 * 5 + 4 * 6) /\
  adept_gemm_cell ZOps mem (mkMV 0 3 2 2 2) (mkMV 10 1 2 2 2) 0 0 = None.
Proof. vm_compute. repeat split. Qed.
