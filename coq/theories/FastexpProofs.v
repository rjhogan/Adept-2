(* C05 (fastexp): method error of quick_e::fastexp_double / fastexp_float.  The computation is the one the
   translator tools/gen_fastexp.py reads from quick_e.h, over the real numbers, with the constants the
   compiler stores.  Not covered here: the floating-point rounding error of the individual operations. *)
From Coq Require Import Reals Lra Lia.
From Interval Require Import Tactic.
From AdeptGen Require Import Gen_Fastexp.
Local Open Scope R_scope.

Lemma Rabs_bounds x a : Rabs x <= a -> - a <= x <= a.
Proof. unfold Rabs. destruct (Rcase_abs x); lra. Qed.

Lemma rel_combine A e a b eps : Rabs (A - 1) <= a -> Rabs e <= b -> b <= 1/2 ->
  a + (1 + a) * (2 * b) <= eps -> Rabs (A * exp (- e) - 1) <= eps.
Proof.
  intros HA He Hb2 Heps. apply Rabs_bounds in HA. apply Rabs_bounds in He.
  (* 1 - e <= exp(-e) <= 1/(1+e) <= 1 + 2b *)
  pose proof (exp_ineq1_le (- e)) as H1. pose proof (exp_ineq1_le e) as H2.
  assert (exp (- e) * exp e = 1) as H3 by (rewrite <- exp_plus, Rplus_opp_l; exact exp_0).
  assert (exp (- e) <= 1 + 2 * b) as H4 by nra.
  apply Rabs_le. replace (A * exp (- e) - 1) with ((A - 1) + A * (exp (- e) - 1)) by ring.
  split; nra.
Qed.

(* the argument common to both precisions: x0 = y + e + n ln 2 with y the reduced argument and e what the stored
   ln 2 is off by (times n); 1 + P approximates exp y within a, relatively; |e| <= b; the result is P 2^n + 2^n (z = fma(z, n2, n2) in quick_e.h) *)
Lemma method_error x0 y e n P a b eps : x0 = y + e + IZR n * ln 2 ->
  Rabs ((1 + P) * exp (- y) - 1) <= a -> Rabs e <= b -> b <= 1/2 -> a + (1 + a) * (2 * b) <= eps ->
  Rabs (P * powerRZ 2 n + powerRZ 2 n - exp x0) <= eps * exp x0.
Proof.
  intros Hx HA He Hb2 Heps. pose proof (rel_combine _ e a b eps HA He Hb2 Heps) as Hrel.
  assert (powerRZ 2 n = exp x0 * exp (- y) * exp (- e)) as H2
    by (rewrite powerRZ_Rpower by lra; unfold Rpower; rewrite <- !exp_plus; f_equal; rewrite Hx; ring).
  replace (P * powerRZ 2 n + powerRZ 2 n - exp x0) with (exp x0 * ((1 + P) * exp (- y) * exp (- e) - 1)) by (rewrite H2; ring).
  rewrite Rabs_mult, (Rabs_pos_eq (exp x0)), Rmult_comm by (left; apply exp_pos).
  apply Rmult_le_compat_r; [left; apply exp_pos|exact Hrel].
Qed.

Lemma IZR_bounds n lo hi : (lo <= n <= hi)%Z -> IZR lo <= IZR n <= IZR hi.
Proof. intros H. split; apply IZR_le; lia. Qed.
(* the reduced argument is t / L, with t = x0 L - v the residue of the rounding, plus v times what the stored
   hi + lo differs from 1 / L by: [interval] bounds the two parts from the ranges of t and v *)
Lemma reduced_split L hi lo x0 v : L <> 0 -> x0 - v * hi - v * lo = (x0 * L - v) / L + v * (/ L - hi - lo).
Proof. intros HL. field. exact HL. Qed.

(* coqchk re-runs every [interval] certificate without the virtual machine, so each call gets the
   lowest degree and precision that prove it, and the polynomials are put in Horner form first: the Estrin form of
   quick_e.h costs twice as many products of Taylor models. *)
Section Double.
  Import FE_d.
  Lemma poly_gen_horner c2 c3 c4 c5 c6 c7 c8 c9 c10 c11 c12 c13 y : poly_gen c2 c3 c4 c5 c6 c7 c8 c9 c10 c11 c12 c13 y =
    y + y * y * (c2 + y * (c3 + y * (c4 + y * (c5 + y * (c6 + y * (c7 + y * (c8 + y * (c9 + y * (c10 + y * (c11 + y * (c12 + y * c13))))))))))).
  Proof. unfold poly_gen. ring. Qed.
  (* the truncation error alone is 0.3467^14/14! = 0.6 * 2^-57: degree 14 and 64 bits are the least that prove the bound *)
  Lemma poly_rel y : Rabs y <= 3467/10000 -> Rabs ((1 + poly y) * exp (- y) - 1) <= 1/144115188075855872.
  Proof.
    intros Hy. unfold poly. rewrite poly_gen_horner.
    interval with (i_taylor y, i_degree 14, i_prec 64).
  Qed.
  Lemma reduced_small x0 n : (-1100 <= n <= 1100)%Z -> Rabs (round_arg x0 - IZR n) <= 1/2 + 1/1099511627776 ->
    Rabs (reduced x0 n) <= 3467/10000.
  Proof.
    intros Hn Ht. apply IZR_bounds in Hn. unfold reduced. unfold round_arg in Ht.
    rewrite (reduced_split c_VM_LOG2E) by (unfold c_VM_LOG2E; lra).
    set (t := x0 * c_VM_LOG2E - IZR n) in *. set (v := IZR n) in *. clearbody t v.
    interval with (i_prec 40).
  Qed.
  Lemma constant_error n : (-1100 <= n <= 1100)%Z -> Rabs (IZR n * (c_ln2d_hi + c_ln2d_lo - ln 2)) <= 1/5000000000000000000.
  Proof.
    intros Hn. apply IZR_bounds in Hn. set (v := IZR n) in *. clearbody v. interval with (i_prec 80).
  Qed.
End Double.

Section Single.
  Import FE_f.
  Definition q_f (y : R) : R := poly y * (y * y) + y.
  Lemma q_f_horner y : q_f y = y + y * y * (c_P0expf + y * (c_P1expf + y * (c_P2expf + y * (c_P3expf + y * (c_P4expf + y * c_P5expf))))).
  Proof. unfold q_f, poly, poly_gen. ring. Qed.
  Lemma poly_rel_f y : Rabs y <= 3467/10000 -> Rabs ((1 + q_f y) * exp (- y) - 1) <= 1/67108864.
  Proof.
    intros Hy. rewrite q_f_horner.
    interval with (i_taylor y, i_degree 7, i_prec 30).
  Qed.
  Lemma reduced_small_f x0 n : (-130 <= n <= 130)%Z -> Rabs (round_arg x0 - IZR n) <= 1/2 + 1/65536 ->
    Rabs (reduced x0 n) <= 3467/10000.
  Proof.
    intros Hn Ht. apply IZR_bounds in Hn. unfold reduced. unfold round_arg in Ht.
    rewrite (reduced_split c_VM_LOG2E) by (unfold c_VM_LOG2E; lra).
    set (t := x0 * c_VM_LOG2E - IZR n) in *. set (v := IZR n) in *. clearbody t v.
    interval with (i_prec 30).
  Qed.
  Lemma constant_error_f n : (-130 <= n <= 130)%Z -> Rabs (IZR n * (c_ln2f_hi + c_ln2f_lo - ln 2)) <= 1/500000000.
  Proof.
    intros Hn. apply IZR_bounds in Hn. set (v := IZR n) in *. clearbody v. interval with (i_prec 50).
  Qed.
End Single.

(* the hypothesis of the method-error theorems is met by every argument the range test lets through *)
Lemma nearest_in_range r N d : - IZR N + 1/2 <= r <= IZR N - 1/2 -> 0 <= d ->
  exists n : Z, (- N <= n <= N)%Z /\ Rabs (r - IZR n) <= 1/2 + d.
Proof.
  intros Hr Hd. exists (up (r - 1/2)). destruct (archimed (r - 1/2)) as [H1 H2]. split; [|apply Rabs_le; lra].
  split; apply le_IZR; rewrite ?opp_IZR; lra.
Qed.
