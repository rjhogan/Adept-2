(* C19, completeness in the simplest case, over the real numbers: on a quadratic cost with its exact gradient and Hessian and an
   exact linear solver, the unbounded Levenberg-Marquardt driver started with zero damping takes the Newton step, lands on
   the stationary point and reports SUCCESS after one iteration (provided that step lowers the cost, which it does for a
   convex quadratic away from the minimum; that last fact is a hypothesis here). *)
From Coq Require Import Reals Lra List Lia.
From Adept Require Import ListProofs Scalar Minim MinimProofs RealOps MinimReal.
Import ListNotations.
Local Open Scope R_scope.

Definition dotR (a b : list R) : R := fold_right Rplus 0 (map2 Rmult a b).
Definition matvec (m : list (list R)) (x : list R) : list R := map (fun row => dotR row x) m.
Definition zeros (n : nat) : list R := repeat 0 n.

Lemma map2_Rplus_length a b : length a = length b -> length (map2 Rplus a b) = length a.
Proof. apply (map2_length Rplus). Qed.
Lemma dotR_add row x y : length x = length y -> dotR row (map2 Rplus x y) = dotR row x + dotR row y.
Proof.
  revert x y. induction row as [|r row IH]; intros [|a x] [|b y] H1; cbn in *; try lra; try discriminate.
  unfold dotR in *. rewrite (IH x y) by lia. ring.
Qed.
Lemma dotR_neg row x : dotR row (map Ropp x) = - dotR row x.
Proof.
  revert x. induction row as [|r row IH]; intros [|a x]; cbn; try lra. unfold dotR in *. rewrite IH. ring.
Qed.
Lemma matvec_add m x y : length x = length y -> matvec m (map2 Rplus x y) = map2 Rplus (matvec m x) (matvec m y).
Proof.
  intros Hl. unfold matvec. induction m as [|row m IH]; [reflexivity|]. cbn [map map2]. rewrite dotR_add, IH by exact Hl. reflexivity.
Qed.
Lemma matvec_neg m x : matvec m (map Ropp x) = map Ropp (matvec m x).
Proof. unfold matvec. induction m as [|row m IH]; [reflexivity|]. cbn [map]. rewrite dotR_neg, IH. reflexivity. Qed.
Lemma matvec_length m x : length (matvec m x) = length m.
Proof. apply map_length. Qed.
Lemma cancel u v b : length u = length b -> v = map2 Rminus u b ->
  map2 Rminus (map2 Rplus u (map Ropp v)) b = map2 Rminus (map2 Rplus u (map Ropp (map2 Rminus u b))) b.
Proof. intros _ ->. reflexivity. Qed.
(* (u - (u - b)) - b = 0 componentwise, with u = H x: the list identity behind "the gradient at x - H^-1 g is zero" *)
Lemma zero_grad u b : length u = length b -> map2 Rminus (map2 Rplus u (map Ropp (map2 Rminus u b))) b = zeros (length u).
Proof.
  revert b. induction u as [|a u IH]; intros [|c b] H; cbn in *; try reflexivity; try discriminate.
  f_equal; [ring|apply IH; lia].
Qed.

Lemma map_diag_id (f : R -> R) m : (forall v, f v = v) -> map_diag RO f m = m.
Proof.
  intros Hf. unfold map_diag. generalize 0%nat. induction m as [|r m IH]; intros i; [reflexivity|]. cbn. rewrite Hf, IH. f_equal. apply set_nth_nth.
Qed.

(* one pass of the outer loop of the unbounded driver at a point where nothing is infinite: it stops with SUCCESS where the
   gradient norm is within the threshold, and goes on from the point its inner loop accepts otherwise *)
Section Steps.
Context {T : Type} (O : Ops T).
Variables (cost : list T -> T) (grad : list T -> list T) (hess : list T -> list (list T)) (solve : list (list T) -> list T -> list T)
  (norm2 : list T -> T) (isfinite : T -> bool) (ofnat : nat -> T).
Notation lm_outer := (lm_outer O cost grad hess solve norm2 isfinite ofnat).
Definition usable (x : list T) : Prop := isfinite (cost x) = true /\ existsb (fun v => negb (isfinite v)) (grad x) = false.

Lemma lm_outer_success fo fi s additive x d it smp sc gn log : usable x -> oleb O (norm2 (grad x)) (thr s) = true ->
  let r := lm_outer (S fo) fi s additive x d it smp sc gn log in r_status r = MSuccess /\ r_iter r = it /\ r_x r = x.
Proof.
  intros [F G] C. cbn [Minim.lm_outer]. rewrite F, G, C. cbn [negb]. destruct (Minim.refresh _ _ _ _ _ _) as [c lg]. cbn. auto.
Qed.
Lemma lm_outer_accept fo fi s additive x d it smp sc gn log nx nc d' smp' lg : usable x -> oleb O (norm2 (grad x)) (thr s) = false ->
  lm_inner O cost solve isfinite fi s additive x (grad x) (hess x) (mean O ofnat (diag O (hess x))) (cost x) d (o1 O) (o0 O) (smp + 1)
    ((log ++ [EvCostGradHess x]) ++ [EvProgress it x (cost x) (norm2 (grad x))]) = IAccept nx nc d' smp' lg ->
  zge (it + 1) (max_it s) = false ->
  lm_outer (S fo) fi s additive x d it smp sc gn log =
  lm_outer fo fi s additive nx (lower_damping O s d') (it + 1) smp' (if (it =? 0)%Z then cost x else sc) (norm2 (grad x)) lg.
Proof. intros [F G] C I M. cbn [Minim.lm_outer]. rewrite F, G, C, I, M. reflexivity. Qed.
End Steps.

Section Newton.
Variable H : list (list R).
Variable b : list R.
Variable n : nat.
Hypothesis H_rows : length H = n.
Hypothesis b_len : length b = n.
Variable cost : list R -> R.
Variable solve : list (list R) -> list R -> list R.
Variable norm2 : list R -> R.
Variable isfinite : R -> bool.
Variable ofnat : nat -> R.
Definition qgrad (x : list R) : list R := map2 Rminus (matvec H x) b.
Definition qhess (_ : list R) : list (list R) := H.
Hypothesis solve_exact : forall g, length g = n -> matvec H (solve H g) = g /\ length (solve H g) = n.
Hypothesis norm_zero : norm2 (zeros n) = 0.
Hypothesis finite_all : forall v, isfinite v = true.

Lemma newton_point x : length x = n -> qgrad (map2 Rplus x (map Ropp (solve H (qgrad x)))) = zeros n.
Proof.
  intros Hx. unfold qgrad.
  assert (Lg : length (map2 Rminus (matvec H x) b) = n) by (rewrite map2_length; rewrite matvec_length; lia).
  destruct (solve_exact _ Lg) as [Hs Ls].
  rewrite matvec_add by (rewrite map_length; lia).
  rewrite matvec_neg, Hs. rewrite zero_grad by (rewrite matvec_length; lia). rewrite matvec_length, H_rows. reflexivity.
Qed.

Theorem lm_newton_one_step (s : settings (T:=R)) x m1 fo fi :
  length x = n -> d_start s = 0 -> ~ (0 < max_step s) -> 0 <= thr s -> (1 < max_it s)%Z ->
  ~ (norm2 (qgrad x) <= thr s) ->
  cost (map2 Rplus x (map Ropp (solve H (qgrad x)))) < cost x ->
  let r := lm_unbounded RO cost qgrad qhess solve norm2 isfinite ofnat (S (S fo)) (S fi) s false x m1 in
  r_status r = MSuccess /\ r_iter r = 1%Z /\ qgrad (r_x r) = zeros n /\ r_x r = map2 Rplus x (map Ropp (solve H (qgrad x))).
Proof.
  intros Hx Hd Hms Hthr Hmax Hnc Hdec r. set (nx := map2 Rplus x (map Ropp (solve H (qgrad x)))) in *.
  enough (E : r_status r = MSuccess /\ r_iter r = 1%Z /\ r_x r = nx)
    by (destruct E as (E1 & E2 & E3); rewrite E3; exact (conj E1 (conj E2 (conj (newton_point x Hx) eq_refl)))).
  assert (Hu : forall y, usable cost qgrad isfinite y).
  { intros y. split; [apply finite_all|]. induction (qgrad y) as [|a g IH]; cbn; [reflexivity|rewrite finite_all; exact IH]. }
  unfold r, lm_unbounded. rewrite Hd.
  (* first pass of the outer loop: not converged; in its inner loop zero damping leaves the Hessian as it is and the step is not
     limited, so the first trial point is the Newton point; it is accepted *)
  erewrite lm_outer_accept; [|apply Hu|exact (reflect_false _ _ (RO_leb_spec _ _) Hnc)| |apply Z.leb_gt; lia].
  2: { cbn [Minim.lm_inner]. unfold damp_diag, limit_step.
       rewrite map_diag_id by (intros v; cbn; field). rewrite (reflect_false _ _ (RO_ltb_spec (o0 RO) (max_step s)) Hms).
       change (vadd RO x (vneg RO (solve (qhess x) (qgrad x)))) with nx.
       rewrite finite_all, (reflect_false _ _ (RO_leb_spec (cost x) (cost nx))) by lra. reflexivity. }
  (* second pass: the gradient there is zero *)
  apply lm_outer_success; [apply Hu|]. rewrite (newton_point x Hx : qgrad nx = zeros n), norm_zero. exact (reflect_true _ _ (RO_leb_spec _ _) Hthr).
Qed.
End Newton.
