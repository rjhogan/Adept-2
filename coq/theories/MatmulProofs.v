(* C15 (dense part): the lemmas through which the theorems of Properties_C15.v use the model Matmul.v.  The marshalling
   of a contiguous operand is one fact ([f_op_contig]): read through the transposition flag and leading dimension that
   matmul.h derives from its strides, the column-major operand of the transposed problem is the operand's own element. *)
From Coq Require Import ZArith List Bool Lia Ring.
From Adept Require Import ListProofs Scalar Matmul.
Local Open Scope Z_scope.

Section MatmulProofs.
Context {T : Type} (O : Ops T).
Hypothesis Rth : ring_theory (o0 O) (o1 O) (oadd O) (omul O) (osub O) (oneg O) (@eq T).
Add Ring TringM : Rth.
Notation zsum := (zsum O).

Lemma zsum_ext n f g : (forall q, 0 <= q < n -> f q = g q) -> zsum n f = zsum n g.
Proof.
  intros H. unfold Matmul.zsum. generalize (o0 O).
  assert (HF : Forall (fun q => f (Z.of_nat q) = g (Z.of_nat q)) (seq 0 (Z.to_nat n)))
    by (apply Forall_forall; intros q Hq; apply in_seq in Hq; apply H; lia).
  induction HF as [|x l E _ IH]; intros a; cbn [fold_left]; [reflexivity|]. rewrite E. apply IH.
Qed.

(* v is the operand; (k, i) is the position in the column-major matrix BLAS sees, which is the transposed one *)
Lemma f_op_contig (mem : Z -> T) (v : mview) i k : row_contig v || col_contig v = true ->
  f_op (negb (row_contig v)) mem (mb v) (if row_contig v then ms0 v else ms1 v) k i = melem mem v i k.
Proof.
  (* the test that holds says that one stride is 1; [lia] reads it as it is *)
  unfold f_op, melem. destruct (row_contig v) eqn:R; cbn [negb orb]; intros C.
  - unfold row_contig in R. f_equal. lia.
  - unfold col_contig in C. f_equal. lia.
Qed.

Lemma ops_val_acc ops g a : fold_left (fun a mi => oadd O a (omul O (fst mi) (g (snd mi)))) ops a = oadd O a (ops_val O ops g).
Proof.
  unfold ops_val. revert a. induction ops as [|x l IH]; intros a; cbn [fold_left]; [ring|]. rewrite IH, (IH (oadd O (o0 O) _)). ring.
Qed.
Lemma ops_val_app a b g : ops_val O (a ++ b) g = oadd O (ops_val O a g) (ops_val O b g).
Proof. unfold ops_val at 1. rewrite fold_left_app. fold (ops_val O a g). apply ops_val_acc. Qed.
Lemma ops_val_push mem g rhs mult0 n is ms_ :
  ops_val O (push_dep mem rhs mult0 n is ms_) g = zsum n (fun q => omul O (mem (mult0 + q * ms_)) (g (rhs + q * is))).
Proof. symmetry. apply (fold_left_sim eq); [intros a b q ->|]; reflexivity. Qed.
End MatmulProofs.
