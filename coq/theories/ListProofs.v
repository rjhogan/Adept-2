(* Small facts, most of them about lists, that several proof files need. *)
From Coq Require Import List ZArith Lia.
Import ListNotations.

(* GapList.v, Conc.v, Storage.v and Minim.v each define their own [set_nth] (no model file imports another's list
   operations).  The four are the same fixpoint as this one up to the names of the bound variables, hence convertible
   with it: the lemmas below apply to all four, and [rewrite] and [apply] find them. *)
Fixpoint set_nth {A} (k : nat) (x : A) (l : list A) : list A :=
  match l, k with [], _ => [] | _ :: t, O => x :: t | h :: t, S k' => h :: set_nth k' x t end.

Lemma length_set_nth {A} k (x : A) l : length (set_nth k x l) = length l.
Proof. revert k. induction l as [|h t IH]; intros [|k]; cbn; congruence. Qed.
Lemma nth_error_set_nth_same {A} k (x : A) l : k < length l -> nth_error (set_nth k x l) k = Some x.
Proof. revert k. induction l as [|h t IH]; intros [|k] H; cbn in *; try lia; [reflexivity|apply IH; lia]. Qed.
Lemma nth_error_set_nth_other {A} k j (x : A) l : j <> k -> nth_error (set_nth k x l) j = nth_error l j.
Proof. revert k j. induction l as [|h t IH]; intros [|k] [|j] H; cbn; try congruence. apply IH. congruence. Qed.
Lemma nth_set_nth_same {A} k (x d : A) l : k < length l -> nth k (set_nth k x l) d = x.
Proof. intros H. apply nth_error_nth, nth_error_set_nth_same, H. Qed.
Lemma nth_set_nth_other {A} k j (x d : A) l : j <> k -> nth j (set_nth k x l) d = nth j l d.
Proof. intros H. rewrite <- !nth_default_eq. unfold nth_default. rewrite nth_error_set_nth_other by exact H. reflexivity. Qed.
Lemma set_nth_overflow {A} k (x : A) l : length l <= k -> set_nth k x l = l.
Proof. revert k. induction l as [|h t IH]; intros [|k] H; cbn in *; try reflexivity; [lia|]. f_equal. apply IH. lia. Qed.
Lemma set_nth_nth {A} k (d : A) l : set_nth k (nth k l d) l = l.
Proof. revert k. induction l as [|h t IH]; intros [|k]; cbn; try reflexivity. f_equal. apply IH. Qed.
Lemma Forall_set_nth {A} (P : A -> Prop) k x l : Forall P l -> P x -> Forall P (set_nth k x l).
Proof. intros Hl Hx. revert k. induction Hl as [|h t Hh Ht IH]; intros [|k]; cbn; constructor; auto. Qed.

Lemma Forall_snoc {A} (P : A -> Prop) l x : Forall P l -> P x -> Forall P (l ++ [x]).
Proof. intros Hl Hx. apply Forall_app. split; [exact Hl|constructor; [exact Hx|constructor]]. Qed.
Lemma Forall_nth_error {A} (P : A -> Prop) l k x : Forall P l -> nth_error l k = Some x -> P x.
Proof. intros H E. exact (proj1 (Forall_forall P l) H x (nth_error_In l k E)). Qed.
Lemma nth_map_in {A B} (f : A -> B) l k d d' : k < length l -> nth k (map f l) d = f (nth k l d').
Proof. intros H. rewrite (nth_indep _ d (f d')) by (rewrite map_length; exact H). apply map_nth. Qed.
Lemma nth_map_seq0 {A} (f : nat -> A) n k d : k < n -> nth k (map f (seq 0 n)) d = f k.
Proof. intros H. rewrite (nth_map_in f _ k d O), seq_nth by (rewrite ?seq_length; exact H). reflexivity. Qed.
Lemma map_nth_seq {A} (l : list A) d n : length l = n -> map (fun k => nth k l d) (seq 0 n) = l.
Proof. intros <-. apply (nth_ext _ _ d d); [rewrite map_length, seq_length; reflexivity|].
  intros k Hk. rewrite map_length, seq_length in Hk. rewrite nth_map_seq0 by exact Hk. reflexivity. Qed.
Lemma seq_offset a w : map (Nat.add a) (seq 0 w) = seq a w.
Proof. induction a as [|a IH]; [apply map_id|]. rewrite <- seq_shift, <- IH, map_map. reflexivity. Qed.
Lemma seq_blocks a w p : flat_map (fun k => seq (a + w * k) w) (seq 0 p) = seq a (w * p).
Proof. induction p as [|p IH]; [rewrite Nat.mul_0_r; reflexivity|].
  rewrite seq_S, flat_map_app, IH. cbn [flat_map]. rewrite app_nil_r, <- seq_app. f_equal. lia. Qed.
Lemma NoDup_app_intro {A} (l1 l2 : list A) : NoDup l1 -> NoDup l2 -> (forall x, In x l1 -> In x l2 -> False) -> NoDup (l1 ++ l2).
Proof.
  intros H1 H2 H. induction H1 as [|x l1 Hx _ IH]; cbn; [exact H2|]. constructor.
  - rewrite in_app_iff. intros [Hin|Hin]; [exact (Hx Hin)|exact (H x (or_introl eq_refl) Hin)].
  - apply IH. intros y Hy. apply H. right. exact Hy.
Qed.
Lemma NoDup_map_inj_on {A B} (f : A -> B) l : (forall x y, In x l -> In y l -> f x = f y -> x = y) -> NoDup l -> NoDup (map f l).
Proof. intros Hinj HND. induction HND as [|x l Hx _ IH]; simpl; constructor.
  - intros Hin. apply in_map_iff in Hin. destruct Hin as (y & E & Hy). rewrite (Hinj y x) in Hy; simpl; auto.
  - apply IH. intros y z Hy Hz. apply Hinj; right; assumption. Qed.
Lemma NoDup_list_prod {A B} (l1 : list A) (l2 : list B) : NoDup l1 -> NoDup l2 -> NoDup (list_prod l1 l2).
Proof. intros H1 H2. induction H1 as [|x l1 Hx _ IH]; simpl; [constructor|]. apply NoDup_app_intro.
  - apply NoDup_map_inj_on; [congruence|assumption].
  - exact IH.
  - intros [a b] Ha Hb. apply in_map_iff in Ha. destruct Ha as (c & E & _). inversion E; subst. apply in_prod_iff in Hb. tauto. Qed.
Lemma NoDup_of_nodup_length {A} (dec : forall x y : A, {x = y} + {x <> y}) l : length (nodup dec l) = length l -> NoDup l.
Proof. intros H. apply (NoDup_incl_NoDup (NoDup_nodup dec l)); [lia|intros x; apply nodup_In]. Qed.
Lemma fold_left_inv {A B} (P : A -> Prop) (f : A -> B -> A) : (forall a b, P a -> P (f a b)) -> forall l a, P a -> P (fold_left f l a).
Proof. intros H l. induction l as [|b l IH]; intros a Ha; [exact Ha|apply IH, H, Ha]. Qed.
Lemma fold_left_sim {A B X Y} (R : A -> B -> Prop) (f : A -> X -> A) (g : B -> Y -> B) (h : X -> Y) l :
  (forall a b x, R a b -> R (f a x) (g b (h x))) -> forall a b, R a b -> R (fold_left f l a) (fold_left g (map h l) b).
Proof. intros Hs. induction l as [|x l IH]; intros a b H; [exact H|]. apply IH, Hs, H. Qed.

(* two digits of a number in radix m *)
Lemma radix_inj (m a b a' b' : Z) : (0 <= b < m -> 0 <= b' < m -> a * m + b = a' * m + b' -> a = a' /\ b = b')%Z.
Proof. intros Hb Hb'. rewrite !(Z.mul_comm _ m). apply Z.div_mod_unique; left; assumption. Qed.

Lemma if_either {A} (c c' : bool) (x y : A) : c = c' \/ x = y -> (if c then x else y) = (if c' then x else y).
Proof. intros [->| ->]; [reflexivity|destruct c, c'; reflexivity]. Qed.

(* [f] adds up a weight [w] over a list: the fixpoints that do so differ from file to file, the equation [Hcons] is all
   that is used *)
Lemma sum_set_nth {A} (f : list A -> Z) (w : A -> Z) (Hcons : forall x t, f (x :: t) = (w x + f t)%Z) k x y l :
  nth_error l k = Some x -> f (set_nth k y l) = (f l - w x + w y)%Z.
Proof. revert k; induction l as [|h t IH]; intros [|k] E; cbn in *; try discriminate; rewrite !Hcons.
  - inversion E. lia. - rewrite (IH _ E). lia. Qed.
