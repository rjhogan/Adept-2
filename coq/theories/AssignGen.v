(* Array::data_range and Array::is_aliased_ (FixedArray's unfold to the same expressions: last conjunct of
   Properties_C04.C04_generated_alias_test) as tools/gen_alias.py reads them from the source on
   every run, re-assembled and proved to be the model's [data_range] and the leaf case of [is_aliased] (Assign.v). *)
From Coq Require Import ZArith List Lia.
From Adept Require Import ListProofs View Assign.
From AdeptGen Require Import Gen_Alias.

Fixpoint gen_range_go (ds ss : list Z) (lo hi : Z) : Z * Z :=
  match ds, ss with
  | d :: ds', s :: ss' => if dr_up d s then gen_range_go ds' ss' lo (dr_up_hi hi d s) else gen_range_go ds' ss' (dr_down_lo lo d s) hi
  | _, _ => (lo, hi)
  end.
Definition gen_data_range (v : view) : Z * Z := gen_range_go (dims v) (strides v) (dr_begin0 (base v)) (dr_end0 (base v)).
(* Array::is_aliased_(mem1, mem2) of a view whose memory is parent [par]; the expression-level test hands over the
   target's data_range as (mem1, mem2) and only arrays of the same parent can share addresses *)
Definition gen_leaf_aliased (v : pview) (p : nat) (mem1 mem2 : Z) : bool :=
  Nat.eqb (par v) p && (let '(b, t) := gen_data_range (vw v) in al_test b t mem1 mem2).

Lemma gen_range_go_eq : forall ds ss lo hi, gen_range_go ds ss lo hi = range_go ds ss lo hi.
Proof.
  (* the last case is left by position, not by [try reflexivity]: a sign test written as the model's makes it convertible too *)
  induction ds as [|d ds IH]; intros [|s ss] lo hi; [reflexivity..|]. cbn [gen_range_go range_go]. rewrite !IH.
  (* from what the two branches compute, not from the syntax of the sign test: one that differs from the model's only at
     stride 0, where both branches add nothing, still passes *)
  apply if_either. unfold dr_up. destruct (Z.eq_dec s 0) as [->|Hs]; [right|left; lia].
  rewrite Z.mul_0_r, !Z.add_0_r. reflexivity.
Qed.
Lemma gen_data_range_eq : forall v, gen_data_range v = data_range v.
Proof. intros v. apply gen_range_go_eq. Qed.
Lemma gen_leaf_aliased_eq : forall v p lo hi, gen_leaf_aliased v p lo hi = is_aliased (ELeaf v) p lo hi.
Proof.
  intros v p lo hi. unfold gen_leaf_aliased. cbn [is_aliased]. rewrite gen_data_range_eq.
  (* [;]: [f_equal] leaves nothing for [lia] where the source writes a comparison as the model does *)
  destruct (data_range (vw v)) as [b t]. unfold al_test. f_equal; lia.
Qed.
