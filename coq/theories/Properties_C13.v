(* C13 — parallel Jacobian computation equals the serial one.
   Model: jac_fwd_omp / jac_rev_omp of Jacobian.v (jacobian.cpp:127-194, 331-452): ceil(k/M) blocks,
   each with a private zeroed buffer, visited in an arbitrary order [order] (= any static partition
   and any interleaving of whole blocks; blocks share only the read-only tape and write disjoint
   cells).  Theorems are over any commutative ring: no re-association takes place, every cell is
   produced by exactly one block, so equality with the serial routine is exact. *)
From Coq Require Import List ZArith Permutation Ring.
From Adept Require Import Scalar Tape Jacobian JacobianProofs JacobianDefs JacobianGenProofs.
From AdeptGen Require Import Gen_Jacobian.
Import ListNotations.

Section C13.
Context {T : Type} (O : Ops T).
Hypothesis Rth : ring_theory (o0 O) (o1 O) (oadd O) (omul O) (osub O) (oneg O) (@eq T).
Hypothesis eqb_true : forall a b, oeqb O a b = true -> a = b.

(* the writes of the parallel routines are a permutation of the writes of the serial ones,
   whatever the order in which the blocks are executed *)
Theorem C13_same_writes : forall M, 1 <= M -> forall (t : tape) indeps deps d0 i0 ordf ordr,
  Permutation ordf (seq 0 (omp_blocks M (length indeps))) -> Permutation ordr (seq 0 (omp_blocks M (length deps))) ->
  Permutation (jac_fwd_omp O M t indeps deps ordf d0 i0) (jac_fwd_serial O M t indeps deps d0 i0) /\
  Permutation (jac_rev_omp O M t indeps deps ordr d0 i0) (jac_rev_serial O M t indeps deps d0 i0).
Proof using Rth eqb_true.
  intros M HM t indeps deps d0 i0 ordf ordr Hf Hr. split.
  - rewrite (fwd_omp_perm O HM Hf). symmetry. apply fwd_serial_perm, HM.
  - rewrite (rev_omp_perm O Rth eqb_true HM Hr). symmetry. apply (rev_serial_perm O Rth eqb_true HM).
Qed.

(* hence the Jacobian memory is identical, address by address, for every schedule, provided the
   target layout maps distinct cells to distinct addresses (any sane dep_offset/indep_offset) *)
Theorem C13_schedule_independent : forall M, 1 <= M -> forall (t : tape) indeps deps d0 i0 ordf ordr mem,
  Permutation ordf (seq 0 (omp_blocks M (length indeps))) -> Permutation ordr (seq 0 (omp_blocks M (length deps))) ->
  addr_injective indeps deps (eff_dep_off indeps d0) (eff_indep_off deps i0) ->
  forall a, apply_writes (jac_fwd_omp O M t indeps deps ordf d0 i0) mem a = apply_writes (jac_fwd_serial O M t indeps deps d0 i0) mem a /\
            apply_writes (jac_rev_omp O M t indeps deps ordr d0 i0) mem a = apply_writes (jac_rev_serial O M t indeps deps d0 i0) mem a.
Proof using Rth eqb_true.
  intros M HM t indeps deps d0 i0 ordf ordr mem Hf Hr Hinj a.
  destruct (C13_same_writes M HM t indeps deps d0 i0 ordf ordr Hf Hr) as [P1 P2].
  split; (apply apply_writes_perm; [assumption|]).
  - exact (canon_addr_NoDup (fwd_omp_perm O HM Hf) Hinj).
  - exact (canon_addr_NoDup (rev_omp_perm O Rth eqb_true HM Hr) Hinj).
Qed.

(* two different blocks never write the same cell *)
Theorem C13_blocks_disjoint : forall M, 1 <= M -> forall (t : tape) indeps deps d0 i0,
  NoDup (map (fun w => (w_dep w, w_indep w)) (jac_fwd_omp O M t indeps deps (seq 0 (omp_blocks M (length indeps))) d0 i0)) /\
  NoDup (map (fun w => (w_dep w, w_indep w)) (jac_rev_omp O M t indeps deps (seq 0 (omp_blocks M (length deps))) d0 i0)).
Proof using Rth eqb_true.
  intros M HM t indeps deps d0 i0. split.
  - rewrite (fwd_omp_perm O HM (Permutation_refl _)). apply canon_keys_NoDup.
  - rewrite (rev_omp_perm O Rth eqb_true HM (Permutation_refl _)). apply canon_keys_NoDup.
Qed.
End C13.
Print Assumptions C13_same_writes.
Print Assumptions C13_schedule_independent.
Print Assumptions C13_blocks_disjoint.

(* non-vacuity: n = 5 independents, M = 2: three blocks, executed in the order 2,0,1 *)
Example C13_example :
  let t := [mkStmt 5 [(2%Z, 0); (3%Z, 1); (1%Z, 4)]; mkStmt 6 [(5%Z, 5); (7%Z, 2); (1%Z, 3)]] in
  Permutation [2;0;1] (seq 0 (omp_blocks 2 5)) /\
  map (fun a => apply_writes (jac_fwd_omp ZOps 2 t [0;1;2;3;4] [5;6] [2;0;1] 1 0) (fun _ => (-7)%Z) (Z.of_nat a)) (seq 0 10)
  = map (fun a => apply_writes (jac_fwd_serial ZOps 2 t [0;1;2;3;4] [5;6] 1 0) (fun _ => (-7)%Z) (Z.of_nat a)) (seq 0 10).
Proof. split; [exact (Permutation_cons_append [0;1] 2)|vm_compute; reflexivity]. Qed.

(* tie G: every store into jacobian_out and every seed statement of adept/jacobian.cpp, TRANSLATED on each run
   (routine, branch of `if (<offset> == 1)`, loop variables and bounds, address expression, work-array element):
   the address is the one the model writes (model_addr = the formula of fwd_block_writes / rev_block_writes), the
   element copied is (gradient index of the outer variable, lane i), the tested offset and the loop bounds are the
   modelled ones, and both branches of every loop nest of all four routines are present *)
Theorem C13_generated_stores_and_seeds :
  Forall site_ok jacobian_sites /\ Forall seed_ok jacobian_seeds /\ sites_complete jacobian_sites jacobian_seeds = true.
Proof. exact generated_stores_and_seeds. Qed.
Print Assumptions C13_generated_stores_and_seeds.
Theorem C13_model_address_is_the_models : forall (T : Type) (l : list nat) (g : nat -> nat -> T) i0 bs doff ioff w,
  (In w (fwd_block_writes l g i0 bs doff ioff) ->
     exists idep i, (i < bs)%nat /\ w_dep w = idep /\ w_indep w = (i0 + i)%nat /\ w_addr w = model_addr true (ioff =? 1)%Z idep i0 i doff ioff) /\
  (In w (rev_block_writes l g i0 bs doff ioff) ->
     exists iindep i, (i < bs)%nat /\ w_indep w = iindep /\ w_dep w = (i0 + i)%nat /\ w_addr w = model_addr false (doff =? 1)%Z iindep i0 i doff ioff).
Proof. exact model_address_is_the_models. Qed.
Print Assumptions C13_model_address_is_the_models.
