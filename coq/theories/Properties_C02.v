(* C02 — forward, reverse and Jacobian results of one recording agree.
   Models: Tape.v (sweeps, Stack.cpp:139-190), Jacobian.v (jacobian.cpp).  T is any commutative
   ring given by [ring_theory]; [eqb_true] is the only fact used about the "a != 0.0" test. *)
From Coq Require Import List ZArith Permutation Ring Lia.
From Adept Require Import Scalar Tape TapeAdjoint Jacobian JacobianProofs JacobianDefs JacobianGenProofs.
From AdeptGen Require Import Gen_Jacobian.
Import ListNotations.

Section C02.
Context {T : Type} (O : Ops T).
Hypothesis Rth : ring_theory (o0 O) (o1 O) (oadd O) (omul O) (osub O) (oneg O) (@eq T).
Hypothesis eqb_true : forall a b, oeqb O a b = true -> a = b.

(* v.(J u) = (J^T v).u for every tape whose indices are below n *)
Theorem C02_dot : forall n (t : tape) , Forall (wf_stmt n) t ->
  forall v u, dot O n (rev_sweep O t v) u = dot O n v (fwd_sweep O t u).
Proof. exact (adjoint_identity O Rth eqb_true). Qed.

(* row d of the adjoint pass and column i of the tangent pass give the same entry *)
Theorem C02_entry : forall n (t : tape) d i, Forall (wf_stmt n) t -> d < n -> i < n ->
  rev_sweep O t (unit_vec O d) i = fwd_sweep O t (unit_vec O i) d.
Proof. exact (reverse_entry_eq_forward_entry O Rth eqb_true). Qed.

(* every routine (serial forward, serial reverse, automatic, OpenMP in any block order) performs,
   up to order, exactly the writes {cell (i,j) at i*dep_off + j*indep_off := J(i,j)}, each once, for
   every block width M >= 1, every m, n (all residues mod M), repeated/overlapping index lists *)
Theorem C02_routines_agree : forall M, 1 <= M -> forall (t : tape) indeps deps ngrad,
  Forall (wf_stmt ngrad) t -> Forall (fun k => k < ngrad) indeps -> Forall (fun k => k < ngrad) deps ->
  forall d0 i0 ordf ordr,
  Permutation ordf (seq 0 (omp_blocks M (length indeps))) -> Permutation ordr (seq 0 (omp_blocks M (length deps))) ->
  let C := canon indeps deps (J_fwd O t indeps deps) (eff_dep_off indeps d0) (eff_indep_off deps i0) in
  Permutation (jac_fwd_serial O M t indeps deps d0 i0) C /\
  Permutation (jac_rev_serial O M t indeps deps d0 i0) C /\
  Permutation (jac_auto O M t indeps deps d0 i0) C /\
  Permutation (jac_fwd_omp O M t indeps deps ordf d0 i0) C /\
  Permutation (jac_rev_omp O M t indeps deps ordr d0 i0) C.
Proof using Rth eqb_true.
  intros M HM t indeps deps ngrad Ht Hi Hd d0 i0 ordf ordr Hf Hr C. unfold C.
  pose proof (canon_rev_eq_fwd O Rth eqb_true Ht Hi Hd) as E.
  repeat split.
  - apply fwd_serial_perm, HM.
  - rewrite <- E. apply (rev_serial_perm O Rth eqb_true HM).
  - unfold jac_auto. destruct (_ <=? _); [apply fwd_serial_perm, HM|rewrite <- E; apply (rev_serial_perm O Rth eqb_true HM)].
  - apply fwd_omp_perm; assumption.
  - rewrite <- E. apply (rev_omp_perm O Rth eqb_true HM Hr).
Qed.

(* memory after a routine: every target cell holds its entry, every other address is untouched,
   whenever the (dependent, independent) -> address map is injective on the m x n rectangle *)
Theorem C02_final_memory : forall indeps deps (J : nat -> nat -> T) doff ioff L mem,
  Permutation L (canon indeps deps J doff ioff) -> addr_injective indeps deps doff ioff ->
  (forall i j, i < length deps -> j < length indeps -> apply_writes L mem (addr doff ioff i j) = J i j) /\
  (forall a, (forall i j, i < length deps -> j < length indeps -> a <> addr doff ioff i j) -> apply_writes L mem a = mem a).
Proof using Type.
  intros indeps deps J doff ioff L mem Hp Hinj. pose proof (canon_addr_NoDup Hp Hinj) as HND. split.
  - intros i j Hi Hj. apply (apply_writes_in L mem (canon_wr J doff ioff (i, j)) HND).
    rewrite Hp. apply in_map, cells_In. tauto.
  - intros a Ha. apply apply_writes_notin. rewrite Hp. unfold canon. rewrite map_map, in_map_iff.
    intros ([i j] & E & Hij). apply cells_In in Hij. apply (Ha i j); [tauto|tauto|]. symmetry. exact E.
Qed.

(* layouts named in the property: raw pointer default = column-major m x n (dependents fastest);
   Matrix target = any positive strides where one dimension dominates (row- or column-major,
   transposed, strided views) *)
Theorem C02_layout_pointer_default : forall indeps deps : list nat,
  eff_dep_off indeps 1 = 1%Z /\ eff_indep_off deps 0 = Z.of_nat (length deps) /\
  addr_injective indeps deps 1 (Z.of_nat (length deps)).
Proof using Type. split; [reflexivity|]. split; [reflexivity|]. apply addr_inj_colmajor. Qed.
Theorem C02_layout_strided : forall (indeps deps : list nat) doff ioff, (1 <= doff)%Z -> (1 <= ioff)%Z ->
  (Z.of_nat (length indeps) * ioff <= doff)%Z \/ (Z.of_nat (length deps) * doff <= ioff)%Z ->
  eff_dep_off indeps doff = doff /\ eff_indep_off deps ioff = ioff /\ addr_injective indeps deps doff ioff.
Proof using Type.
  intros indeps deps doff ioff H1 H2 H. unfold eff_dep_off, eff_indep_off.
  destruct (Z.leb_spec doff 0); [lia|]. destruct (Z.leb_spec ioff 0); [lia|].
  split; [reflexivity|]. split; [reflexivity|].
  destruct H; [apply addr_inj_strided_rows|apply addr_inj_strided_cols]; assumption.
Qed.
End C02.

Print Assumptions C02_dot.
Print Assumptions C02_entry.
Print Assumptions C02_routines_agree.
Print Assumptions C02_final_memory.
Print Assumptions C02_layout_pointer_default.
Print Assumptions C02_layout_strided.

(* non-vacuity over the integers: a 2-statement tape, repeated independent, M = 2, n = 3, m = 2 *)
Example C02_example :
  let t := [mkStmt 3 [(2%Z, 0); (3%Z, 1)]; mkStmt 4 [(5%Z, 3); (7%Z, 2)]] in
  Forall (wf_stmt 5) t /\
  map (fun a => apply_writes (jac_fwd_serial ZOps 2 t [0;1;0] [3;4] 1 0) (fun _ => (-7)%Z) (Z.of_nat a)) (seq 0 6)
    = [2; 10; 3; 15; 2; 10]%Z /\
  map (fun a => apply_writes (jac_rev_serial ZOps 2 t [0;1;0] [3;4] 1 0) (fun _ => (-7)%Z) (Z.of_nat a)) (seq 0 6)
    = [2; 10; 3; 15; 2; 10]%Z.
Proof. split; [repeat constructor|]. vm_compute. split; reflexivity. Qed.

(* tie G: every store into jacobian_out and every seed statement of adept/jacobian.cpp, TRANSLATED on each run
   (routine, branch of `if (<offset> == 1)`, loop variables and bounds, address expression, work-array element):
   the address is the one the model writes (model_addr = the formula of fwd_block_writes / rev_block_writes), the
   element copied is (gradient index of the outer variable, lane i), the tested offset and the loop bounds are the
   modelled ones, and both branches of every loop nest of all four routines are present *)
Theorem C02_generated_stores_and_seeds :
  Forall site_ok jacobian_sites /\ Forall seed_ok jacobian_seeds /\ sites_complete jacobian_sites jacobian_seeds = true.
Proof. exact generated_stores_and_seeds. Qed.
Print Assumptions C02_generated_stores_and_seeds.
Theorem C02_model_address_is_the_models : forall (T : Type) (l : list nat) (g : nat -> nat -> T) i0 bs doff ioff w,
  (In w (fwd_block_writes l g i0 bs doff ioff) ->
     exists idep i, (i < bs)%nat /\ w_dep w = idep /\ w_indep w = (i0 + i)%nat /\ w_addr w = model_addr true (ioff =? 1)%Z idep i0 i doff ioff) /\
  (In w (rev_block_writes l g i0 bs doff ioff) ->
     exists iindep i, (i < bs)%nat /\ w_indep w = iindep /\ w_dep w = (i0 + i)%nat /\ w_addr w = model_addr false (doff =? 1)%Z iindep i0 i doff ioff).
Proof. exact model_address_is_the_models. Qed.
Print Assumptions C02_model_address_is_the_models.
