(* C01 — reverse-mode gradients equal the true derivatives of the recorded program.
   Models: generated/Gen_Ops.v (tie G: the rule tables - template arguments, multiplier expressions, guards,
   derivative expressions - are translated from BinaryOperation.h / UnaryOperation.h on every run), Expr.v
   (hand-written interpreter of those tables: value_at_location_store_, value_stored_, calc_gradient_),
   Program.v (hand model of which statement each Active<T> operation records; tie H: ./check C01 runs generated
   adouble programs against the extracted model), Tape.v (sweeps of Stack.cpp). *)
From Coq Require Import ZArith List Reals Ring_theory.
From Coquelicot Require Import Coquelicot.
From Adept Require Import Scalar ExprDefs Expr ExprProofs ExprScalar ExprScalarProofs Tape TapeAdjoint Program ProgramProofs ExprReal.
From Adept Require Import ActiveDefs.
From AdeptGen Require Import Gen_Ops Gen_Active.
Import ListNotations.

Section AnyRing.
Context {T : Type} (F : FOps T).
Let O := fbase F.
Hypothesis Rth : ring_theory (o0 O) (o1 O) (oadd O) (omul O) (osub O) (oneg O) (@eq T).
Hypothesis Hdiv : forall x y, odiv O x y = omul O x (odiv O (o1 O) y).
Hypothesis Hlit1 : flit F 1 1 = o1 O.
Hypothesis eqb_true : forall a b, oeqb O a b = true -> a = b.

(* one expression (any tree of active / passive scalars, array elements, unary functions, binary operations in
   every operand-kind combination): the protocol returns the value of the expression and pushes operations whose
   weighted sum is its tangent, for every direction u *)
Theorem C01_expression : forall (e : expr (T:=T)) u,
  fst (value_and_gradient F e) = sem F e /\ dot_ops F (snd (value_and_gradient F e)) u = tangent F u e.
Proof. exact (value_and_gradient_correct F Rth Hdiv Hlit1). Qed.

(* every program: values are those of the plain program, the forward sweep over the recorded tape gives the
   tangents of the dual-number evaluation *)
Theorem C01_tape_forward : forall p vals0 u0,
  fst (exec F p vals0) = fst (dexec F p vals0 u0) /\ fwd_sweep O (snd (exec F p vals0)) u0 = snd (dexec F p vals0 u0).
Proof. exact (exec_forward F Rth Hdiv Hlit1). Qed.

(* reverse mode: seed output y with 1; the adjoint at input x equals the tangent of y when x is seeded with 1 *)
Theorem C01_reverse_equals_first_order_evaluation : forall n p vals0 y x,
  forallb (stmt_below n) p = true -> (y < n)%nat -> (x < n)%nat ->
  rev_sweep O (snd (exec F p vals0)) (unit_vec O y) x = snd (dexec F p vals0 (unit_vec O x)) y.
Proof using Rth Hdiv Hlit1 eqb_true.
  intros n p vals0 y x Hp Hy Hx. rewrite <- (proj2 (exec_forward F Rth Hdiv Hlit1 p vals0 _)).
  apply (reverse_entry_eq_forward_entry O Rth eqb_true n); auto using exec_wf.
Qed.

(* never more operations than check_space_static<n_active> reserves (shared with C09) *)
Theorem C01_pushes_within_n_active : forall arrs (e : expr (T:=T)) A S scr w,
  (Z.of_nat (length (calc_gradient F arrs e A S scr w)) <= n_active e)%Z.
Proof. exact (pushes_le_n_active F). Qed.

(* c op e and e op c with a passive scalar c go through the wrapper classes BinaryOpScalarLeft / BinaryOpScalarRight,
   whose child positions and forwarding template arguments are TRANSLATED from the source (scalar_left_node,
   scalar_right_node, and the lists of policies they are instantiated with): for every policy so instantiated, every
   child expression and every direction they return the value and push the tangent of the binary node with a passive
   leaf; inside any enclosing tree (any A, S, multiplier) they are that node (C01_scalar_wrappers_in_context) *)
Theorem C01_scalar_wrappers : forall k c (e : expr (T:=T)) u,
  (In k scalar_left_ops ->
     fst (sn_value_and_gradient F scalar_left_node true k c e) = sem F (XBin k (XPas c) e) /\
     dot_ops F (snd (sn_value_and_gradient F scalar_left_node true k c e)) u = tangent F u (XBin k (XPas c) e)) /\
  (In k scalar_right_ops ->
     fst (sn_value_and_gradient F scalar_right_node false k c e) = sem F (XBin k e (XPas c)) /\
     dot_ops F (snd (sn_value_and_gradient F scalar_right_node false k c e)) u = tangent F u (XBin k e (XPas c))).
Proof.
  intros k c e u. split.
  - apply (sn_tree_correct F Rth Hdiv Hlit1 _ _ true), left_at, generated_left_ok.
  - apply (sn_tree_correct F Rth Hdiv Hlit1 _ _ false), right_at, generated_right_ok.
Qed.
Theorem C01_scalar_wrappers_in_context : forall arrs k c (e : expr (T:=T)) A S scr w,
  (In k scalar_left_ops ->
     sn_value_store F scalar_left_node true arrs k c e A S scr = value_store F arrs (XBin k (XPas c) e) A S scr) /\
  sn_value_stored F scalar_left_node true arrs k c e A S scr = value_stored F arrs (XBin k (XPas c) e) A S scr /\
  sn_calc_gradient F scalar_left_node true arrs k c e A S scr w = calc_gradient F arrs (XBin k (XPas c) e) A S scr w /\
  (In k scalar_right_ops ->
     sn_value_store F scalar_right_node false arrs k c e A S scr = value_store F arrs (XBin k e (XPas c)) A S scr) /\
  sn_value_stored F scalar_right_node false arrs k c e A S scr = value_stored F arrs (XBin k e (XPas c)) A S scr /\
  sn_calc_gradient F scalar_right_node false arrs k c e A S scr w = calc_gradient F arrs (XBin k e (XPas c)) A S scr w.
Proof.
  intros arrs k c e A S scr w.
  pose proof (left_at _ _ generated_left_ok) as L. pose proof (right_at _ _ (n_arrays e) (n_scratch e) generated_right_ok) as R.
  split; [apply (sn_value_store_tree F _ _ true e L)|]. split; [apply (sn_value_stored_tree F _ _ true e L)|].
  split; [apply (sn_calc_gradient_tree F _ _ true e L)|].
  split; [apply (sn_value_store_tree F _ _ false e R)|]. split; [apply (sn_value_stored_tree F _ _ false e R)|].
  apply (sn_calc_gradient_tree F _ _ false e R).
Qed.
End AnyRing.
Print Assumptions C01_expression.
Print Assumptions C01_scalar_wrappers.
Print Assumptions C01_scalar_wrappers_in_context.
Print Assumptions C01_tape_forward.
Print Assumptions C01_reverse_equals_first_order_evaluation.
Print Assumptions C01_pushes_within_n_active.

(* the generated tables use the template arguments of the canonical numbering (a slip in one of them breaks this) *)
Theorem C01_template_arguments : forall k, let p := policy_of k in
  rule_at SL (p_left p) /\ rule_at SL (p_left_m p) /\ rule_at SR (p_right p) /\ rule_at SR (p_right_m p) /\ (0 <= p_store_result p <= 2)%Z.
Proof. exact policies_canonical. Qed.
Print Assumptions C01_template_arguments.

(* the generated tables of the two scalar wrapper classes: child stored where the binary node stores it, policy entered
   with the node's own MyArrayNum / MyScratchNum, and no policy with two scratch slots instantiated through a wrapper
   that fills only one (BinaryOpScalarRight has no operation_store variant) *)
Theorem C01_scalar_wrapper_tables :
  snode_left_ok scalar_left_node scalar_left_ops /\ snode_right_ok scalar_right_node scalar_right_ops.
Proof. exact (conj generated_left_ok generated_right_ok). Qed.
Print Assumptions C01_scalar_wrapper_tables.

(* every constructor, assignment and compound assignment of Active<T> and ActiveReference<T>, TRANSLATED from Active.h /
   ActiveReference.h (the recorded effect of each body recognised token by token): a passive right-hand side records the
   left-hand side only (PSetP), an active scalar or expression goes through scalar_value_and_gradient with a reservation
   that covers its pushes and then push_lhs (PSetE), x op= e is x = x op e with the same operator, x += c and x -= c change
   the value only (PAddP), x *= c and x /= c are x = x op c; all overloads are present *)
Theorem C01_active_overloads :
  forallb (overload_ok false) active_overloads = true /\ overloads_complete active_overloads = true /\
  forallb (overload_ok true) active_reference_overloads = true /\ overloads_complete active_reference_overloads = true.
Proof. vm_compute. repeat split. Qed.
Print Assumptions C01_active_overloads.

(* the derivative expressions of the unary table and the binary partial derivatives are the true derivatives over R.
   _partial: asin, acos, erf, erfc, cbrt, atan2, max, min and the (zero) derivatives of the rounding functions are not covered *)
Local Open Scope R_scope.
Theorem C01_table_partial : forall x,
  (0 < x -> is_derive (Rf1 F_log) x (un_derivative RF F_log x (Rf1 F_log x))) /\
  (-1 < x -> is_derive (Rf1 F_log1p) x (un_derivative RF F_log1p x (Rf1 F_log1p x))) /\
  is_derive (Rf1 F_sin) x (un_derivative RF F_sin x (Rf1 F_sin x)) /\
  is_derive (Rf1 F_cos) x (un_derivative RF F_cos x (Rf1 F_cos x)) /\
  (cos x <> 0 -> is_derive (Rf1 F_tan) x (un_derivative RF F_tan x (Rf1 F_tan x))) /\
  is_derive (Rf1 F_atan) x (un_derivative RF F_atan x (Rf1 F_atan x)) /\
  is_derive (Rf1 F_sinh) x (un_derivative RF F_sinh x (Rf1 F_sinh x)) /\
  is_derive (Rf1 F_cosh) x (un_derivative RF F_cosh x (Rf1 F_cosh x)) /\
  is_derive (Rf1 F_tanh) x (un_derivative RF F_tanh x (Rf1 F_tanh x)) /\
  (0 < x -> is_derive (Rf1 F_sqrt) x (un_derivative RF F_sqrt x (Rf1 F_sqrt x))) /\
  is_derive (Rf1 F_exp) x (un_derivative RF F_exp x (Rf1 F_exp x)) /\
  is_derive (Rf1 F_fastexp) x (un_derivative RF F_fastexp x (Rf1 F_fastexp x)) /\
  is_derive (Rf1 F_expm1) x (un_derivative RF F_expm1 x (Rf1 F_expm1 x)) /\
  is_derive (Rf1 F_uplus) x (un_derivative RF F_uplus x (Rf1 F_uplus x)) /\
  is_derive (Rf1 F_uminus) x (un_derivative RF F_uminus x (Rf1 F_uminus x)) /\
  (x <> 0 -> is_derive (Rf1 F_abs) x (un_derivative RF F_abs x (Rf1 F_abs x)) /\ is_derive (Rf1 F_fabs) x (un_derivative RF F_fabs x (Rf1 F_fabs x))) /\
  is_derive (Rf1 F_asinh) x (un_derivative RF F_asinh x (Rf1 F_asinh x)) /\
  (-1 < x < 1 -> is_derive (Rf1 F_atanh) x (un_derivative RF F_atanh x (Rf1 F_atanh x))) /\
  (0 < x -> exists d, is_derive (Rf1 F_log10) x d /\ Rabs (un_derivative RF F_log10 x (Rf1 F_log10 x) - d) <= 1/1000000000000000 * Rabs d) /\
  (0 < x -> exists d, is_derive (Rf1 F_log2) x d /\ Rabs (un_derivative RF F_log2 x (Rf1 F_log2 x) - d) <= 1/1000000000000000 * Rabs d) /\
  (exists d, is_derive (Rf1 F_exp2) x d /\ Rabs (un_derivative RF F_exp2 x (Rf1 F_exp2 x) - d) <= 1/1000000000000000 * Rabs d).
Proof.
  intros x. repeat simple apply conj.
  - exact (table_plain F_log x). - exact (table_plain F_log1p x). - exact (table_plain F_sin x I). - exact (table_plain F_cos x I). - exact (table_tan x).
  - exact (table_atan x). - exact (table_plain F_sinh x I). - exact (table_plain F_cosh x I). - exact (table_tanh x). - exact (table_sqrt x).
  - exact (table_plain F_exp x I). - exact (table_plain F_fastexp x I). - exact (table_plain F_expm1 x I). - exact (table_plain F_uplus x I). - exact (table_plain F_uminus x I).
  - exact (table_abs x).
  - exact (table_asinh x). - exact (table_atanh x). - exact (table_log10 x). - exact (table_log2 x). - exact (table_exp2 x).
Qed.
Print Assumptions C01_table_partial.
Theorem C01_binary_partials : forall x y,
  (is_derive (fun t => bop RF KAdd t y) x (dleft RF KAdd x y) /\ is_derive (fun t => bop RF KAdd x t) y (dright RF KAdd x y)) /\
  (is_derive (fun t => bop RF KSub t y) x (dleft RF KSub x y) /\ is_derive (fun t => bop RF KSub x t) y (dright RF KSub x y)) /\
  (is_derive (fun t => bop RF KMul t y) x (dleft RF KMul x y) /\ is_derive (fun t => bop RF KMul x t) y (dright RF KMul x y)) /\
  (y <> 0 -> is_derive (fun t => bop RF KDiv t y) x (dleft RF KDiv x y) /\ is_derive (fun t => bop RF KDiv x t) y (dright RF KDiv x y)) /\
  (0 < x -> is_derive (fun t => bop RF KPow t y) x (dleft RF KPow x y) /\ is_derive (fun t => bop RF KPow x t) y (dright RF KPow x y)).
Proof.
  intros x y. split; [exact (partial_ring KAdd x y I)|]. split; [exact (partial_ring KSub x y I)|]. split; [exact (partial_ring KMul x y I)|].
  split; [exact (partial_div x y)|exact (partial_pow x y)].
Qed.
Print Assumptions C01_binary_partials.

(* non-vacuity: x2 = x0 * x1; x3 = (x2 - x0) + x2 * x2 over the integers, at x0 = 3, x1 = 5: value and reverse gradient *)
Definition ZF : FOps Z := mkFOps Z ZOps (fun _ x => x) (fun _ x _ => x) (fun n d => Z.div n d).
Example C01_example :
  let p := [PSetE 2 (PBin KMul (PVar 0) (PVar 1)); PSetE 3 (PBin KAdd (PBin KSub (PVar 2) (PVar 0)) (PBin KMul (PVar 2) (PVar 2)))] in
  let vals0 := fun i : nat => match i with O => 3%Z | S O => 5%Z | _ => 0%Z end in
  fst (exec ZF p vals0) 3%nat = 237%Z /\
  rev_sweep ZOps (snd (exec ZF p vals0)) (unit_vec ZOps 3) 0%nat = 154%Z /\
  rev_sweep ZOps (snd (exec ZF p vals0)) (unit_vec ZOps 3) 1%nat = 93%Z.
Proof. vm_compute. repeat split. Qed.
