(* C18, "the call terminates", Levenberg family over the real numbers: the inner loop raises the damping from its restart
   value by a factor > 1 until it passes the maximum, so it gives up or accepts within a number of trials that is
   logarithmic in d_max / d_low; with that much inner fuel and max_it outer fuel neither loop of the model runs out of
   fuel, for any cost function. *)
From Coq Require Import Reals Lra Lia.
From Adept Require Import Minim MinimProofs RealOps MinimReal.
Local Open Scope R_scope.

Section Term.
Variable cost : list R -> R.
Variable grad : list R -> list R.
Variable hess : list R -> list (list R).
Variable solve : list (list R) -> list R -> list R.
Variable norm2 : list R -> R.
Variable isfinite : R -> bool.
Variable ofnat : nat -> R.
Variable s : settings (T:=R).
(* the damping values that can occur are 0 (or negative) or at least dlow; K multiplications take dlow beyond d_max *)
Variables (dlow : R) (K : nat).
Hypothesis dlow_pos : 0 < dlow.
Hypothesis mult_gt1 : 1 < d_mult s.
Hypothesis restart_ok : dlow <= d_restart s.
Hypothesis reach : d_max s <= dlow * d_mult s ^ K.

Definition dok (d : R) : Prop := d <= 0 \/ dlow <= d.

Lemma raise_spec d : raise_damping RO s d =
  if Rle_dec d 0 then Some (d_restart s) else if Rlt_dec d (d_max s) then Some (d * d_mult s) else None.
Proof. unfold raise_damping. cbn. unfold Rleb, Rltb. destruct (Rle_dec d 0); [reflexivity|]. destruct (Rlt_dec d (d_max s)); reflexivity. Qed.

Notation raises := (raises RO).
Lemma raises_stuck_pos : forall (m : nat) d n, 0 < d -> d_max s <= d * d_mult s ^ m -> (m < n)%nat -> raises s n d = None.
Proof.
  induction m as [|m IH]; intros d [|n] Hd Hm Hn; [lia| |lia|]; cbn [MinimProofs.raises pow] in *; rewrite raise_spec;
    (destruct (Rle_dec d 0); [lra|]); (destruct (Rlt_dec d (d_max s)); [|reflexivity]).
  - lra.
  - apply IH; [apply Rmult_lt_0_compat; lra|rewrite Rmult_assoc; exact Hm|lia].
Qed.
Lemma raise_low d d' : dok d -> raise_damping RO s d = Some d' -> dlow <= d'.
Proof.
  intros Hd. rewrite raise_spec. destruct (Rle_dec d 0); [intros E; inversion E; exact restart_ok|].
  destruct (Rlt_dec d (d_max s)); [|discriminate]. intros E; inversion E. destruct Hd as [Hd|Hd]; [lra|].
  replace dlow with (dlow * 1) by ring. apply Rmult_le_compat; lra.
Qed.
Lemma raises_stuck fuel d : dok d -> (K + 2 <= fuel)%nat -> raises s fuel d = None.
Proof.
  intros Hd Hf. destruct fuel as [|fuel]; [lia|]. cbn [MinimProofs.raises].
  (* one raise takes the damping to dlow or beyond, K more take it beyond d_max *)
  destruct (raise_damping RO s d) as [d'|] eqn:E; [|reflexivity]. apply (raise_low d d' Hd) in E.
  apply (raises_stuck_pos K); [lra| |lia]. apply (Rle_trans _ _ _ reach), Rmult_le_compat_r; [apply pow_le; lra|exact E].
Qed.
Lemma lm_inner_fuel : forall fuel additive x g h ds cf d ps pm smp log, dok d -> (K + 2 <= fuel)%nat ->
  lm_inner RO cost solve isfinite fuel s additive x g h ds cf d ps pm smp log <> IFuel.
Proof.
  intros * Hd Hf E.
  apply (lm_inner_spec RO cost solve isfinite RO_le_total) in E. apply E, raises_stuck; assumption.
Qed.
Lemma lmb_inner_fuel : forall fuel additive lo hi x ifree sub_g sub_h ds cf d ps pm smp log, dok d -> (K + 2 <= fuel)%nat ->
  lmb_inner RO cost solve isfinite fuel s additive lo hi x ifree sub_g sub_h ds cf d ps pm smp log <> BFuel.
Proof.
  intros * Hd Hf E.
  apply lmb_inner_raises in E. apply E, raises_stuck; assumption.
Qed.

Hypothesis div_pos : 0 < d_div s.
Hypothesis low_ok : dlow * d_div s <= d_min s.

Lemma raises_dok n : forall d d', dok d -> raises s n d = Some d' -> dok d'.
Proof.
  induction n as [|n IH]; intros d d' Hd; cbn [MinimProofs.raises]; [intros E; inversion E; subst; exact Hd|].
  destruct (raise_damping RO s d) as [d1|] eqn:Er; [|discriminate]. apply IH. right. exact (raise_low d d1 Hd Er).
Qed.
Lemma lower_dok d : dok (lower_damping RO s d).
Proof.
  unfold lower_damping. destruct (RO_ltb_spec (d_min s) d); cbn; [|left; lra]. right.
  apply (Rmult_le_reg_r (d_div s)); [exact div_pos|]. unfold Rdiv. rewrite Rmult_assoc, Rinv_l by lra. lra.
Qed.
Lemma lm_inner_dok fuel : forall additive x g h ds cf d ps pm smp log nx nc d' smp' lg, dok d ->
  lm_inner RO cost solve isfinite fuel s additive x g h ds cf d ps pm smp log = IAccept nx nc d' smp' lg -> dok d'.
Proof.
  intros * Hd E.
  apply (lm_inner_spec RO cost solve isfinite RO_le_total) in E. destruct E as (_ & _ & n & E). exact (raises_dok n _ _ Hd E).
Qed.

Theorem lm_bounded_terminates fo fi additive lo hi x m1 inf : dok (d_start s) -> (0 < max_it s)%Z -> (Z.to_nat (max_it s) <= fo)%nat -> (K + 2 <= fi)%nat ->
  let r := lm_bounded RO cost grad hess solve norm2 isfinite ofnat fo fi s additive lo hi x m1 inf in
  r_status r <> MOutOfFuel /\ r_status r <> MInnerOutOfFuel.
Proof.
  intros Hd Hm Hfo Hfi r. unfold r. destruct (valid_bounds RO lo hi x) eqn:Hv; [|unfold Minim.lm_bounded; rewrite Hv; cbn; split; discriminate].
  destruct (lm_bounded_run RO cost grad hess solve norm2 isfinite ofnat dok fo fi s additive lo hi x m1 inf Hv) as (_ & H2 & H3).
  split; [apply H2; [exact Hm|rewrite Z.sub_0_r; exact Hfo]|].
  apply H3; [exact Hd|exact lower_dok|intros; apply lmb_inner_fuel; assumption].
Qed.
End Term.
