(* C05 — vectorized evaluation equals scalar evaluation on every instruction set.
   Models: VecSplit.v (hand model of the prologue / packet body / epilogue split and of the alignment
   negotiation; tie H: ./check C05 compares its counts with the guarded hook counters of every statement of the
   sweep, in each instruction-set build) and generated/Gen_Fastexp.v (tie G: translated from quick_e.h on every
   run).  Modelled, not verified: a packet operation is the lane-wise IEEE operation (the intrinsics of
   quick_e.h); that part is observed by the sweep (bitwise comparison with scalar evaluation). *)
From Coq Require Import List Lia Reals Lra.
From Adept Require Import VecSplit VecSplitProofs FastexpProofs.
From AdeptGen Require Import Gen_Vecguard.
From AdeptGen Require Import Gen_Fastexp.
Import ListNotations.

Section Z.
Local Open Scope Z_scope.
(* every index of a row is handled by exactly one of the three loops, for every packet width w, every row
   length n >= 2w and every accepted offset *)
Theorem C05_three_loops_cover_each_element_once : forall w n off i, 0 < w -> 2 * w <= n -> 0 <= off < w -> 0 <= i < n ->
  let '(s, e) := split w n off off in
  (0 <= i < s /\ ~ (s <= i < e) /\ ~ (e <= i)) \/
  (s <= i < e /\ exists k lane, 0 <= k < (e - s) / w /\ 0 <= lane < w /\ i = s + w * k + lane) \/
  (e <= i < n /\ ~ (i < s)).
Proof.
  intros w n off i Hw Hn Ho Hi. destruct (split_accepted w n off Hw ltac:(lia)) as (q & -> & Hq & Hqn).
  rewrite Z.add_simpl_l, (proj1 (packets_div w q Hw)).
  destruct (Z_lt_le_dec i off); [left; lia|]. destruct (Z_lt_le_dec i (off + w * q)); [|right; right; lia].
  right; left. split; [lia|]. exists ((i - off) / w), ((i - off) mod w).
  pose proof (Z.div_mod (i - off) w ltac:(lia)). pose proof (Z.mod_pos_bound (i - off) w Hw).
  repeat split; try lia.
  - apply Z.div_pos; lia.
  - apply Z.div_lt_upper_bound; lia.
Qed.
Print Assumptions C05_three_loops_cover_each_element_once.

Theorem C05_split_shape : forall w n off, 0 < w -> 2 * w <= n -> 0 <= off < w ->
  let '(s, e) := split w n off off in s = off /\ s <= e <= n /\ (e - s) mod w = 0 /\ n - e < w /\ 0 <= n - e.
Proof.
  intros w n off Hw Hn Ho. destruct (split_accepted w n off Hw ltac:(lia)) as (q & -> & Hq & Hqn).
  rewrite Z.add_simpl_l, (proj2 (packets_div w q Hw)). lia.
Qed.
Print Assumptions C05_split_shape.

(* whenever the packet body is not empty, the target and every array operand of the expression are accessed at
   packet-aligned addresses in every packet of the body, whatever the shape of the expression tree *)
Theorem C05_packet_accesses_aligned : forall w e lhs_addr n s en, 0 < w -> 2 * w <= n ->
  split w n (expr_off w e) (align_off w lhs_addr) = (s, en) -> s < en ->
  (lhs_addr + s) mod w = 0 /\ forall a, In a (leaves e) -> forall k, (a + s + w * k) mod w = 0.
Proof.
  intros w e lhs_addr n s en Hw _ Hs Hlt. destruct (split_nonempty Hs Hlt) as (Hnn & E & ->). split.
  - rewrite E. apply align_off_aligned, Hw.
  - intros a Ha k. rewrite Z.mul_comm, Z.mod_add by lia. rewrite (expr_off_leaf w e a Hw Ha Hnn). apply align_off_aligned, Hw.
Qed.
Print Assumptions C05_packet_accesses_aligned.

(* clash of offsets or disagreement with the target: everything is scalar *)
Theorem C05_fallback_is_scalar : forall w n r l, (r < 0 \/ r <> l) -> split w n r l = (0, 0).
Proof.
  intros w n r l H. unfold split. destruct (Z.ltb_spec r 0); [reflexivity|]. destruct (Z.eqb_spec r l); [lia|reflexivity].
Qed.
Print Assumptions C05_fallback_is_scalar.

Theorem C05_counters : forall w n off, 0 < w -> 2 * w <= n -> 0 <= off < w ->
  let '(h, p, t) := counts w n (split w n off off) in h + w * p + t = n /\ 0 <= h < w /\ 0 <= t < w /\ 1 <= p.
Proof.
  intros w n off Hw Hn Ho. destruct (split_accepted w n off Hw ltac:(lia)) as (q & -> & Hq & Hqn). unfold counts.
  rewrite Z.add_simpl_l, (proj1 (packets_div w q Hw)).
  (* a row of two packets or more leaves room for one whole packet after any offset below w *)
  assert (1 <= q) by nia. lia.
Qed.
Print Assumptions C05_counters.
End Z.

(* value level: with lane-wise packet operations the three loops produce, element by element and in the same
   order, what the scalar loop produces *)
Theorem C05_vector_row_equals_scalar_row : forall (A : Type) (f : nat -> A) s w p t,
  vec_row f s w p t = map f (seq 0 (s + w * p + t)).
Proof.
  intros A f s w p t.
  unfold vec_row. rewrite map_seq_blocks, <- !map_app. f_equal.
  rewrite (seq_app (s + w * p) t 0), (seq_app s (w * p) 0). rewrite <- app_assoc. reflexivity.
Qed.
Print Assumptions C05_vector_row_equals_scalar_row.

(* reductions: scalar accumulator for prologue and epilogue, w lane accumulators for the body, combined at the
   end: equal to the scalar reduction in any commutative monoid, i.e. re-association is the only difference.
   _partial: the rounding bound of re-associated floating-point accumulation itself is not proved here (the
   check compares against the standard bound 2 gamma_n sum|x_i|) *)
Theorem C05_reduction_differs_by_reassociation_only_partial : forall (A : Type) (op : A -> A -> A) (e0 : A),
  (forall a b c, op (op a b) c = op a (op b c)) -> (forall a b, op a b = op b a) -> (forall a, op e0 a = a) ->
  forall f s w p t, vec_reduce op e0 f s w p t = scalar_reduce op e0 f (s + w * p + t).
Proof. exact @vec_reduce_is_scalar_reduce. Qed.
Print Assumptions C05_reduction_differs_by_reassociation_only_partial.

Local Open Scope R_scope.
(* fastexp: method error of the algorithm of quick_e.h (argument reduction with the stored constants, stored
   polynomial coefficients, scaling by 2^n) in exact arithmetic.  _partial: the rounding errors of the
   floating-point operations are not part of the statement; the 2 ulp claim is observed by the sweep *)
Theorem C05_fastexp_double_method_error_partial : forall x0 n, (-1100 <= n <= 1100)%Z ->
  Rabs (FE_d.round_arg x0 - IZR n) <= 1/2 + 1/1099511627776 ->
  Rabs (FE_d.result x0 n - exp x0) <= 1/36028797018963968 * exp x0.
Proof.
  intros x0 n Hn Ht.
  apply (method_error x0 (FE_d.reduced x0 n) (IZR n * (FE_d.c_ln2d_hi + FE_d.c_ln2d_lo - ln 2)) n _ (1/144115188075855872) (1/5000000000000000000)); try lra.
  - unfold FE_d.reduced. ring.
  - apply poly_rel, reduced_small; assumption.
  - apply constant_error. exact Hn.
Qed.
Print Assumptions C05_fastexp_double_method_error_partial.
Theorem C05_fastexp_float_method_error_partial : forall x0 n, (-130 <= n <= 130)%Z ->
  Rabs (FE_f.round_arg x0 - IZR n) <= 1/2 + 1/65536 ->
  Rabs (FE_f.result x0 n - exp x0) <= 1/33554432 * exp x0.
Proof.
  intros x0 n Hn Ht.
  apply (method_error x0 (FE_f.reduced x0 n) (IZR n * (FE_f.c_ln2f_hi + FE_f.c_ln2f_lo - ln 2)) n _ (1/67108864) (1/500000000)); try lra.
  - unfold FE_f.reduced. ring.
  - apply poly_rel_f, reduced_small_f; assumption.
  - apply constant_error_f. exact Hn.
Qed.
Print Assumptions C05_fastexp_float_method_error_partial.
(* the hypothesis is met by every argument inside the range test of the code *)
Theorem C05_fastexp_hypothesis_met : forall x0,
  (FE_d.c_min_x <= x0 <= FE_d.c_max_x -> exists n : Z, (-1100 <= n <= 1100)%Z /\ Rabs (FE_d.round_arg x0 - IZR n) <= 1/2 + 1/1099511627776) /\
  (FE_f.c_min_x <= x0 <= FE_f.c_max_x -> exists n : Z, (-130 <= n <= 130)%Z /\ Rabs (FE_f.round_arg x0 - IZR n) <= 1/2 + 1/65536).
Proof.
  intros x0. split; intros Hx; [apply (nearest_in_range _ 1100)|apply (nearest_in_range _ 130)];
    unfold FE_d.round_arg, FE_d.c_VM_LOG2E, FE_d.c_min_x, FE_d.c_max_x, FE_f.round_arg, FE_f.c_VM_LOG2E, FE_f.c_min_x, FE_f.c_max_x in *; lra.
Qed.
Print Assumptions C05_fastexp_hypothesis_met.

Example C05_example :
  split 4 19 3 3 = (3, 19)%Z /\ counts 4 19 (split 4 19 3 3) = (3, 4, 0)%Z /\
  stmt_counts 4 1 19 5 true (VBin (VArr 9 true) (VBin VScal (VArr 13 true))) = (3, 4, 0)%Z /\
  stmt_counts 4 1 19 5 true (VBin (VArr 9 true) (VArr 14 true)) = (0, 0, 19)%Z /\
  vec_row (fun i => i * i)%nat 1 2 2 1 = [0; 1; 4; 9; 16; 25]%nat.
Proof. vm_compute. repeat split. Qed.

(* tie G for the guard of the vectorized reduction (reduce.h), TRANSLATED on every run: it compares the LAST extent (the
   row length) with twice the packet size, which is the model's [eligible]; and that is what makes the scalar head loop -
   which runs to the alignment offset without looking at the row length - stay inside the row, with room for a packet *)
Local Open Scope Z_scope.
Theorem C05_generated_reduction_guard : forall w n (contig : bool) off,
  reduce_guard_dim = GLast /\ reduce_guard_factor = 2 /\
  (0 < w -> 0 <= off < w -> eligible w n contig = andb (reduce_guard_factor * w <=? n) contig /\
            (eligible w n contig = true -> off <= n /\ off + w <= n)).
Proof.
  intros w n contig off. split; [reflexivity|]. split; [reflexivity|].
  intros Hw Ho. unfold eligible, reduce_guard_factor. split; [reflexivity|].
  destruct (Z.leb_spec (2 * w) n); [lia|discriminate].
Qed.
Print Assumptions C05_generated_reduction_guard.
