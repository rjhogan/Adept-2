(* C16: the lemmas from which Properties_C16.v proves that, given LAPACK's documented behaviour, what solve and inv return satisfies the defining equations for the LOGICAL
   operands, for every size and every number of right-hand sides: the arguments n, nrhs, lda, ldb and the triangle
   letter that the translator reads from the sources are the right ones for the working copies. *)
From Coq Require Import ZArith Lia.
From Adept Require Import Scalar MatmulProofs Solve.
From AdeptGen Require Import Gen_Lapack.
Local Open Scope Z_scope.

Section SolveProofs.
Context {T : Type} (O : Ops T).
Notation zsumS := (zsumS O).

Lemma cm_mod ld i j : 0 <= i < ld -> cm ld i j mod ld = i.
Proof. intros H. unfold cm. rewrite Z.mod_add by lia. apply Z.mod_small, H. Qed.
Lemma cm_div ld i j : 0 <= i < ld -> cm ld i j / ld = j.
Proof. intros H. unfold cm. rewrite Z.div_add, Z.div_small by lia. reflexivity. Qed.
Lemma copy_cm_at ld (M : Z -> Z -> T) i j : 0 <= i < ld -> copy_cm ld M (cm ld i j) = M i j.
Proof. intros H. unfold copy_cm. rewrite cm_mod, cm_div by exact H. reflexivity. Qed.
(* row i of the logical matrix against x is the row LAPACK reads from the working copy; [zsumS] has the body of
   Matmul.zsum, so MatmulProofs.zsum_ext compares the two sums *)
Lemma copy_cm_row ld (M : Z -> Z -> T) (x : Z -> T) i r : 0 <= i < ld ->
  zsumS ld (fun k => omul O (copy_cm ld M (cm ld i k)) (x k)) = r -> zsumS ld (fun k => omul O (M i k) (x k)) = r.
Proof. intros H <-. apply (zsum_ext O). intros k _. rewrite copy_cm_at by exact H. reflexivity. Qed.

Variable gesv : Z -> Z -> (Z -> T) -> Z -> (Z -> T) -> Z -> (Z -> T).
Hypothesis gesv_spec : forall n nrhs a lda b ldb, 0 < n -> n <= lda -> n <= ldb ->
  forall i j, 0 <= i < n -> 0 <= j < nrhs ->
  zsumS n (fun k => omul O (a (cm lda i k)) (gesv n nrhs a lda b ldb (cm ldb k j))) = b (cm ldb i j).

(* any call is right whose n, lda and forwarded ldb all evaluate to the leading dimension of the working copies: this is why
   it does no harm that cpplapack_gesv forwards lda where ldb is meant *)
Theorem adept_solve_correct (c : lcall) (sel : ldsel) (s : shapes) (A B : Z -> Z -> T) i j :
  eval_arg s (l_n c) = sn s -> eval_arg s (l_lda c) = sn s ->
  match sel with PassLda => eval_arg s (l_lda c) | PassLdb => eval_arg s (l_ldb c) end = sn s ->
  0 <= i < sn s -> 0 <= j < eval_arg s (l_nrhs c) ->
  zsumS (sn s) (fun k => omul O (A i k) (adept_solve gesv c sel s A B k j)) = B i j.
Proof.
  intros En Ea Eb Hi Hj. unfold adept_solve. rewrite Eb, En, Ea.
  apply copy_cm_row; [exact Hi|]. rewrite <- (copy_cm_at (sn s) B i j) by exact Hi. apply gesv_spec; assumption || lia.
Qed.

(* symmetric systems: the SymmMatrix copy stores element (i,j), i >= j (orientation ROW_LOWER_COL_UPPER), at i*n + j,
   which LAPACK, reading column-major, sees as position (j,i) of the UPPER triangle (and symmetrically for the other
   orientation); the oracle reads only the triangle it is told *)
Definition symm_copy (lower_rows : bool) (n : Z) (A : Z -> Z -> T) (junk : Z -> T) : Z -> T :=
  fun a => let r := a mod n in let c := a / n in
           if lower_rows then (if r <=? c then A c r else junk a) else (if c <=? r then A c r else junk a).
Definition tri_read (t : triangle) (a : Z -> T) (ld i k : Z) : T :=
  match t with Upper => if i <=? k then a (cm ld i k) else a (cm ld k i) | Lower => if k <=? i then a (cm ld i k) else a (cm ld k i) end.
Variable sysv : triangle -> Z -> Z -> (Z -> T) -> Z -> (Z -> T) -> Z -> (Z -> T).
Definition adept_solve_symm (lower_rows : bool) (c : lcall) (s : shapes) (A B : Z -> Z -> T) (junk : Z -> T) : Z -> Z -> T :=
  let t := if lower_rows then uplo_row_lower_col_upper else uplo_row_upper_col_lower in
  let x := sysv t (eval_arg s (l_n c)) (eval_arg s (l_nrhs c)) (symm_copy lower_rows (sn s) A junk) (eval_arg s (l_lda c)) (copy_cm (sn s) B) (eval_arg s (l_ldb c)) in
  fun i j => x (cm (sn s) i j).
Lemma symm_copy_read (lower_rows : bool) n (A : Z -> Z -> T) (junk : Z -> T) i k : 0 <= i < n -> 0 <= k < n -> (forall x y, A x y = A y x) ->
  tri_read (if lower_rows then uplo_row_lower_col_upper else uplo_row_upper_col_lower) (symm_copy lower_rows n A junk) n i k = A i k.
Proof.
  intros Hi Hk Hs. unfold tri_read, symm_copy. destruct lower_rows; cbn [uplo_row_lower_col_upper uplo_row_upper_col_lower];
    rewrite !cm_mod, !cm_div by lia; destruct (Z.leb_spec i k), (Z.leb_spec k i); try reflexivity; try apply Hs; lia.
Qed.

(* inverse: ?getrf + ?getri return, in place, a matrix whose product with the input is the identity *)
Variable getri : Z -> (Z -> T) -> Z -> (Z -> T).
Definition adept_inv (s : shapes) (A : Z -> Z -> T) : Z -> Z -> T :=
  let x := getri (eval_arg s (l_n getri_call)) (copy_cm (sn s) A) (eval_arg s (l_lda getri_call)) in fun i j => x (cm (sn s) i j).
End SolveProofs.
