(* C18 / C19: what the Levenberg / Levenberg-Marquardt drivers guarantee for EVERY cost function, gradient, Hessian, linear
   solver and norm (Section variables; the only hypotheses on them are the two on shapes below), every starting point, every
   box and every setting.
   The only facts used about the scalar type are that <= is a total pre-order and that a < b is the negation of b <= a;
   they hold for the reals and for IEEE doubles without NaN, so the theorems are not about exact arithmetic only. *)
From Coq Require Import List Bool ZArith Lia.
From Adept Require Import ListProofs Scalar Minim.
Import ListNotations.
Local Open Scope Z_scope.

Section MinimProofs.
Context {T : Type} (O : Ops T).
Variable cost : list T -> T.
Variable grad : list T -> list T.
Variable hess : list T -> list (list T).
Variable solve : list (list T) -> list T -> list T.
Variable norm2 : list T -> T.
Variable isfinite : T -> bool.
Variable ofnat : nat -> T.
Hypothesis le_total : forall a b, oleb O a b = true \/ oleb O b a = true.
Hypothesis le_trans : forall a b c, oleb O a b = true -> oleb O b c = true -> oleb O a c = true.
Hypothesis lt_le : forall a b, oltb O a b = negb (oleb O b a).
Hypothesis grad_len : forall x, length (grad x) = length x.
Hypothesis solve_len : forall m g, length (solve m g) = length g.

Notation clamp1 := (clamp1 O).
Notation clamp := (clamp O).
Notation d0 := (o0 O).

Lemma le_refl a : oleb O a a = true.
Proof. destruct (le_total a a); assumption. Qed.
Lemma lt_false a b : oltb O a b = false -> oleb O b a = true.
Proof. rewrite lt_le. destruct (oleb O b a); [reflexivity|discriminate]. Qed.
Lemma le_false a b : oleb O a b = false -> oleb O b a = true.
Proof. intros E. destruct (le_total a b) as [H|H]; [congruence|exact H]. Qed.
Lemma lt_spec a b : BoolSpec (oleb O a b = true /\ oleb O b a = false) (oleb O b a = true) (oltb O a b).
Proof. rewrite lt_le. destruct (oleb O b a) eqn:E; constructor; [reflexivity|exact (conj (le_false _ _ E) eq_refl)]. Qed.

Lemma clamp1_in l h v : oleb O l h = true -> oleb O l (clamp1 l h v) = true /\ oleb O (clamp1 l h v) h = true.
Proof.
  intros Hlh. unfold Minim.clamp1, omax, omin.
  destruct (lt_spec h v) as [_|E1].
  - destruct (oltb O l h); [split; [exact Hlh|apply le_refl]|split; [apply le_refl|exact Hlh]].
  - destruct (lt_spec l v) as [[E2 _]|_]; [split; [exact E2|exact E1]|split; [apply le_refl|exact Hlh]].
Qed.
Lemma clamp1_low l h v : oleb O l h = true -> oleb O v l = true -> oleb O (clamp1 l h v) l = true.
Proof.
  intros Hlh Hv. unfold Minim.clamp1, omax, omin.
  destruct (lt_spec h v) as [[_ E1]|_].
  - rewrite (le_trans _ _ _ Hv Hlh) in E1. discriminate.
  - destruct (lt_spec l v) as [[_ E2]|_]; [congruence|apply le_refl].
Qed.
Lemma clamp1_high l h v : oleb O h v = true -> oleb O h (clamp1 l h v) = true.
Proof.
  intros Hv. unfold Minim.clamp1, omax, omin.
  destruct (oltb O h v).
  - destruct (lt_spec l h) as [_|E2]; [apply le_refl|exact E2].
  - destruct (lt_spec l v) as [_|E2]; [exact Hv|apply (le_trans _ _ _ Hv E2)].
Qed.

Lemma map2_length {A B C} (f : A -> B -> C) a b : length a = length b -> length (map2 f a b) = length a.
Proof. revert b. induction a as [|x a IH]; intros [|y b] H; cbn in *; try reflexivity; try discriminate. f_equal. apply IH. lia. Qed.
Lemma nth_map2 {A B C} (f : A -> B -> C) a b j da db dc : length a = length b -> (j < length a)%nat -> nth j (map2 f a b) dc = f (nth j a da) (nth j b db).
Proof. revert b j. induction a as [|x a IH]; intros [|y b] j H Hj; cbn in *; try lia. destruct j as [|j]; [reflexivity|]. apply IH; lia. Qed.
Lemma map3_map2 {A B C D} (f : A -> B -> C -> D) a b c : map3 f a b c = map2 (fun g z => g z) (map2 f a b) c.
Proof. revert b c. induction a as [|x a IH]; intros [|y b] [|z c]; cbn; try reflexivity. f_equal. apply IH. Qed.
Lemma map4_map3 {A B C D E} (f : A -> B -> C -> D -> E) a b c d : map4 f a b c d = map2 (fun g w => g w) (map3 f a b c) d.
Proof. revert b c d. induction a as [|x a IH]; intros [|y b] [|z c] [|w d]; cbn; try reflexivity. f_equal. apply IH. Qed.
Lemma map3_length {A B C D} (f : A -> B -> C -> D) a b c : length a = length b -> length b = length c -> length (map3 f a b c) = length a.
Proof. intros H1 H2. rewrite map3_map2, map2_length; rewrite (map2_length f a b H1); [reflexivity|lia]. Qed.
Lemma map4_length {A B C D E} (f : A -> B -> C -> D -> E) a b c d : length a = length b -> length b = length c -> length c = length d -> length (map4 f a b c d) = length a.
Proof. intros H1 H2 H3. rewrite map4_map3, map2_length; rewrite (map3_length f a b c H1 H2); [reflexivity|lia]. Qed.
Lemma nth_map3 {A B C D} (f : A -> B -> C -> D) a b c j da db dc dd : length a = length b -> length b = length c -> (j < length a)%nat ->
  nth j (map3 f a b c) dd = f (nth j a da) (nth j b db) (nth j c dc).
Proof. intros H1 H2 Hj. pose proof (map2_length f a b H1) as L. rewrite map3_map2, (nth_map2 _ _ c j (f da db) dc), (nth_map2 f a b j da db) by lia. reflexivity. Qed.
Lemma nth_map4 {A B C D E} (f : A -> B -> C -> D -> E) a b c d j da db dc dd de : length a = length b -> length b = length c -> length c = length d -> (j < length a)%nat ->
  nth j (map4 f a b c d) de = f (nth j a da) (nth j b db) (nth j c dc) (nth j d dd).
Proof. intros H1 H2 H3 Hj. pose proof (map3_length f a b c H1 H2) as L. rewrite map4_map3, (nth_map2 _ _ d j (f da db dc) dd), (nth_map3 f a b c j da db dc) by lia. reflexivity. Qed.
Lemma scatter_add_length idx d v : length (scatter_add O idx d v) = length v.
Proof. revert d v. induction idx as [|i idx IH]; intros [|di d] v; cbn; try reflexivity. rewrite IH. apply length_set_nth. Qed.
Lemma nth_scatter_add_notin idx d v j dflt : ~ In j idx -> nth j (scatter_add O idx d v) dflt = nth j v dflt.
Proof.
  revert d v. induction idx as [|i idx IH]; intros [|di d] v H; cbn; try reflexivity.
  rewrite IH by (intros H'; apply H; right; exact H'). apply nth_set_nth_other. intros ->. apply H. left. reflexivity.
Qed.
Lemma find_from_S {A} (p : A -> bool) k v : find_from p (S k) v = map S (find_from p k v).
Proof. revert k. induction v as [|x v IH]; intros k; cbn; [reflexivity|]. rewrite IH. destruct (p x); reflexivity. Qed.
Lemma in_find {A} (p : A -> bool) v j d : In j (find p v) -> p (nth j v d) = true.
Proof.
  revert j. induction v as [|x v IH]; intros j H; cbn in *; [contradiction|]. rewrite find_from_S in H.
  (* j is the head, which passed the test, or the successor of an index found in the tail *)
  destruct (p x) eqn:E; [destruct H as [<-|H]; [exact E|]|].
  all: apply in_map_iff in H as (i & <- & Hi); apply IH, Hi.
Qed.

Definition within (lo hi x : list T) : Prop :=
  length x = length lo /\ forall j, (j < length x)%nat -> oleb O (nth j lo d0) (nth j x d0) = true /\ oleb O (nth j x d0) (nth j hi d0) = true.
Definition box_ok (lo hi : list T) : Prop := length lo = length hi /\ forall j, (j < length lo)%nat -> oleb O (nth j lo d0) (nth j hi d0) = true.
Definition log_ok (lo hi : list T) (l : list (event (T:=T))) : Prop := Forall (fun e => within lo hi (ev_state e)) l.
(* a flagged variable is at the bound it is flagged for (with feasibility: on it) *)
Definition pinned_ok (lo hi x : list T) (bs : list Z) : Prop :=
  length bs = length x /\ forall j, (j < length x)%nat -> (nth j bs 0 = -1 -> oleb O (nth j x d0) (nth j lo d0) = true) /\ (nth j bs 0 = 1 -> oleb O (nth j hi d0) (nth j x d0) = true).

Lemma clamp_length lo hi x : length lo = length hi -> length x = length lo -> length (clamp lo hi x) = length x.
Proof. intros H1 H2. unfold Minim.clamp. rewrite map3_length; lia. Qed.
Lemma nth_clamp lo hi x j : length lo = length hi -> length x = length lo -> (j < length x)%nat ->
  nth j (clamp lo hi x) d0 = clamp1 (nth j lo d0) (nth j hi d0) (nth j x d0).
Proof. intros H1 H2 Hj. apply nth_map3; lia. Qed.
Lemma flag_at_bounds_length lo hi x bs : length lo = length hi -> length x = length lo -> length bs = length x -> length (flag_at_bounds O lo hi x bs) = length x.
Proof. intros H1 H2 H3. unfold flag_at_bounds. rewrite map4_length; lia. Qed.
Lemma nth_flag_at_bounds lo hi x bs j : length lo = length hi -> length x = length lo -> length bs = length x -> (j < length x)%nat ->
  nth j (flag_at_bounds O lo hi x bs) 0 = flag1 O (nth j lo d0) (nth j hi d0) (nth j x d0) (nth j bs 0).
Proof. intros H1 H2 H3 Hj. apply nth_map4; lia. Qed.
Lemma clamp_within lo hi x : box_ok lo hi -> length x = length lo -> within lo hi (clamp lo hi x).
Proof.
  intros [Hl Hb] Hx. split; [rewrite clamp_length; lia|].
  intros j Hj. rewrite clamp_length in Hj by lia. rewrite nth_clamp by lia. apply clamp1_in, Hb. lia.
Qed.
Lemma set_nth_within lo hi x i v : within lo hi x -> ((i < length x)%nat -> oleb O (nth i lo d0) v = true /\ oleb O v (nth i hi d0) = true) -> within lo hi (set_nth i v x).
Proof.
  intros [Hl Hw] Hv. split; [rewrite length_set_nth; exact Hl|].
  intros j Hj. rewrite length_set_nth in Hj. destruct (Nat.eq_dec i j) as [->|Hne].
  - rewrite nth_set_nth_same by exact Hj. apply Hv. exact Hj.
  - rewrite nth_set_nth_other by congruence. apply Hw. exact Hj.
Qed.
Lemma set_nth_bound_within lo hi x i (up : bool) : box_ok lo hi -> within lo hi x -> within lo hi (set_nth i (if up then nth i hi d0 else nth i lo d0) x).
Proof.
  intros [Hl Hb] W. apply set_nth_within; [exact W|]. intros Hi. destruct W as [Hx _]. assert (Hi' : (i < length lo)%nat) by lia. specialize (Hb i Hi').
  destruct up; split; try apply le_refl; exact Hb.
Qed.

(* pinned_ok lo hi x bs says pinned1 of the j-th components for every j < length x *)
Definition pinned1 (l h v : T) (b : Z) : Prop := (b = -1 -> oleb O v l = true) /\ (b = 1 -> oleb O h v = true).
Lemma pinned1_free l h v : pinned1 l h v 0.
Proof. split; discriminate. Qed.
Lemma pinned1_bound l h b : pinned1 l h (if 0 <? b then h else l) b.
Proof. split; intros ->; apply le_refl. Qed.
Lemma pinned1_flag1 l h v b : pinned1 l h v b -> pinned1 l h v (flag1 O l h v b).
Proof.
  intros P. unfold flag1. destruct (oleb O v l) eqn:E1; [split; [intros _; exact E1|discriminate]|].
  destruct (oleb O h v) eqn:E2; [split; [discriminate|intros _; exact E2]|exact P].
Qed.
Lemma pinned1_clamp1 l h v b : oleb O l h = true -> pinned1 l h v b -> pinned1 l h (clamp1 l h v) b.
Proof. intros Hlh [Pl Ph]. split; intros E; [apply clamp1_low; auto|apply clamp1_high; auto]. Qed.
Lemma pinned_flag lo hi x bs : length lo = length hi -> length x = length lo -> pinned_ok lo hi x bs -> pinned_ok lo hi x (flag_at_bounds O lo hi x bs).
Proof.
  intros Hl Hx [Pl P]. split; [apply flag_at_bounds_length; assumption|].
  intros j Hj. rewrite nth_flag_at_bounds by assumption. apply pinned1_flag1, P, Hj.
Qed.
Lemma pinned_clamp lo hi x bs : box_ok lo hi -> length x = length lo -> pinned_ok lo hi x bs -> pinned_ok lo hi (clamp lo hi x) bs.
Proof.
  intros [Hl Hb] Hx [Pl P]. unfold pinned_ok. rewrite clamp_length by assumption. split; [exact Pl|].
  intros j Hj. rewrite nth_clamp by assumption. apply pinned1_clamp1; [apply Hb; lia|apply P, Hj].
Qed.
Lemma pinned_scatter_add lo hi x bs idx d : (forall j, In j idx -> nth j bs 0 = 0) -> pinned_ok lo hi x bs -> pinned_ok lo hi (scatter_add O idx d x) bs.
Proof.
  intros Hidx [Pl P]. unfold pinned_ok. rewrite scatter_add_length. split; [exact Pl|]. intros j Hj.
  destruct (Z.eq_dec (nth j bs 0) 0) as [E|N]; [rewrite E; apply pinned1_free|].
  rewrite nth_scatter_add_notin by (intros Hin; exact (N (Hidx j Hin))). apply P, Hj.
Qed.
Lemma pinned_set_nth lo hi x bs i v b : pinned_ok lo hi x bs -> ((i < length x)%nat -> pinned1 (nth i lo d0) (nth i hi d0) v b) -> pinned_ok lo hi (set_nth i v x) (set_nth i b bs).
Proof.
  intros [Pl P] Pi. unfold pinned_ok. rewrite !length_set_nth. split; [exact Pl|]. intros j Hj. destruct (Nat.eq_dec i j) as [->|N].
  - rewrite !nth_set_nth_same by lia. exact (Pi Hj).
  - rewrite !nth_set_nth_other by congruence. apply P, Hj.
Qed.

Notation lmb_inner := (lmb_inner O cost solve isfinite).
Definition inner_post (lo hi x : list T) (ifree : list nat) (cf : T) (r : binner_res (T:=T)) : Prop :=
  match r with
  | BAccept nx nc d smp bt ib lg =>
      within lo hi nx /\ nc = cost nx /\ oleb O nc cf = true /\ log_ok lo hi lg
      /\ (forall bs, pinned_ok lo hi x bs -> (forall j, In j ifree -> nth j bs 0 = 0) ->
          pinned_ok lo hi nx (if bt =? 0 then bs else set_nth (nth ib ifree 0%nat) bt bs))
  | BStop st d smp lg => log_ok lo hi lg
  | BFuel => True
  end.
(* The lemmas about the inner loops take the result as a variable r: a caller applies them in the equation left by
   destruct .. eqn:, and the induction hypothesis applies in the equation left by the recursive call, so that the sixteen
   arguments of the loop are not written out again. *)
Lemma lmb_inner_spec fuel : forall s additive lo hi x ifree sub_g sub_h ds cf damping ps pm smp log r,
  lmb_inner fuel s additive lo hi x ifree sub_g sub_h ds cf damping ps pm smp log = r ->
  box_ok lo hi -> length x = length lo -> log_ok lo hi log -> inner_post lo hi x ifree cf r.
Proof.
  induction fuel as [|fuel IH]; intros s additive lo hi x ifree sub_g sub_h ds cf damping ps pm smp log r <- Hbox Hlen Hlog; [exact I|].
  cbn [Minim.lmb_inner].
  destruct (damp_diag O additive ds damping ps pm sub_h) as [[h' ps'] pm'].
  destruct (fraction O x lo hi (limit_step O s (vneg O (solve h' sub_g))) ifree) as [[frac bt] ib].
  set (sub_dx' := if bt =? 0 then limit_step O s _ else vscale O frac _).
  set (new_x0 := clamp lo hi (scatter_add O ifree sub_dx' x)).
  set (i := nth ib ifree 0%nat).
  set (new_x := if bt =? 0 then new_x0 else set_nth i (if 0 <? bt then nth i hi d0 else nth i lo d0) new_x0).
  assert (W0 : within lo hi new_x0) by (apply clamp_within; [exact Hbox|rewrite scatter_add_length; exact Hlen]).
  assert (W : within lo hi new_x).
  { unfold new_x. destruct (bt =? 0); [exact W0|apply set_nth_bound_within; assumption]. }
  assert (Hlog' : log_ok lo hi (log ++ [EvCost new_x])) by (apply Forall_snoc; assumption).
  match goal with |- inner_post _ _ _ _ _ (if ?c then _ else _) => destruct c eqn:Hc end.
  - destruct (raise_damping O s damping) as [d'|]; [eapply IH; [reflexivity|assumption..]|exact Hlog'].
  - apply orb_false_iff in Hc. destruct Hc as [Hc _]. apply orb_false_iff in Hc. destruct Hc as [Hc _].
    refine (conj W (conj eq_refl (conj (lt_false _ _ Hc) (conj Hlog' _)))).
    (* the accepted point is x with free variables moved, then clamped, then variable i put on its bound: each of the three
       keeps the flags right *)
    intros bs P Hfree.
    assert (P0 : pinned_ok lo hi new_x0 bs) by (apply pinned_clamp; [exact Hbox|rewrite scatter_add_length; exact Hlen|apply pinned_scatter_add; assumption]).
    unfold new_x. destruct (bt =? 0); [exact P0|]. apply pinned_set_nth; [exact P0|intros _; apply pinned1_bound].
Qed.

Fixpoint raises (s : settings (T:=T)) (n : nat) (d : T) : option T :=
  match n with 0%nat => Some d | S n' => match raise_damping O s d with Some d' => raises s n' d' | None => None end end.
Lemma lmb_inner_raises fuel : forall s additive lo hi x ifree sub_g sub_h ds cf d ps pm smp log r,
  lmb_inner fuel s additive lo hi x ifree sub_g sub_h ds cf d ps pm smp log = r ->
  match r with
  | BAccept _ _ _ _ _ _ _ => True
  | BStop st _ _ _ => st = MInvalidCost \/ st = MFailedToConverge
  | BFuel => raises s fuel d <> None
  end.
Proof.
  induction fuel as [|fuel IH]; intros s additive lo hi x ifree sub_g sub_h ds cf d ps pm smp log r; [intros <-; discriminate|].
  cbn [Minim.lmb_inner raises]. destruct (damp_diag _ _ _ _ _ _ _) as [[h' ps'] pm']. destruct (fraction _ _ _ _ _ _) as [[frac bt] ib].
  match goal with |- (if ?c then _ else _) = _ -> _ => destruct c end; [|intros <-; exact I].
  destruct (raise_damping O s d) as [d1|]; [apply IH|]. intros <-. destruct (negb _); [left|right]; reflexivity.
Qed.

Notation in_play := (in_play O solve norm2).
Notation gnorm_free := (gnorm_free O norm2).
Lemma can_release_release1 bs g : can_release O (release1 O bs g) g = false.
Proof.
  unfold can_release, release1. revert g. induction bs as [|b bs IH]; intros [|gi g]; cbn; try reflexivity.
  (* a released flag is 0, which is not releasable whatever the gradient *)
  rewrite IH. destruct (releasable O b gi) eqn:E; [|rewrite E]; reflexivity.
Qed.
Lemma can_release_nobound bs g : count_bound bs <= 0 -> can_release O bs g = false.
Proof.
  unfold can_release, count_bound. revert g. induction bs as [|b bs IH]; intros [|gi g] H; cbn in *; try reflexivity.
  destruct (Z.eqb_spec b 0) as [->|Hb]; cbn in H; [|lia]. rewrite IH by exact H. reflexivity.
Qed.
Lemma can_release_false_nth bs g j : length bs = length g -> (j < length bs)%nat -> can_release O bs g = false -> releasable O (nth j bs 0) (nth j g d0) = false.
Proof.
  intros Hl Hj H. apply (existsb_nth _ _ (n:=j) false) in H; [|rewrite map2_length; assumption].
  rewrite (nth_map2 _ bs g j 0 d0) in H by assumption. exact H.
Qed.
(* in_play only clears flags, and a cleared flag asks nothing: pinned_ok survives each of its three operations *)
Lemma pinned_release2 lo hi x bs g dx : length bs = length g -> length g = length dx -> pinned_ok lo hi x bs -> pinned_ok lo hi x (release2 O bs g dx).
Proof.
  intros H1 H2 [Pl P]. unfold release2. split; [rewrite map3_length; assumption|]. intros j Hj. rewrite (nth_map3 _ bs g dx j 0 d0 d0 0) by lia.
  destruct (_ && _ && _); [apply pinned1_free|]. destruct (_ && _ && _); [apply pinned1_free|apply P, Hj].
Qed.
Lemma pinned_release1 lo hi x bs g : length bs = length g -> pinned_ok lo hi x bs -> pinned_ok lo hi x (release1 O bs g).
Proof.
  intros H1 [Pl P]. unfold release1. split; [rewrite map2_length; assumption|]. intros j Hj. rewrite (nth_map2 _ bs g j 0 d0 0) by lia.
  destruct (releasable _ _ _); [apply pinned1_free|apply P, Hj].
Qed.
(* the variable that met its bound in the last step gets its flag back *)
Lemma pinned_hold lo hi x bs bs' i : pinned_ok lo hi x bs -> pinned_ok lo hi x bs' -> pinned_ok lo hi x (set_nth i (nth i bs 0) bs').
Proof. intros P P'. rewrite <- (set_nth_nth i d0 x). apply pinned_set_nth; [exact P'|apply P]. Qed.
Lemma in_play_spec lo hi x s additive held bs nbound g h ds damping bs' ifree gn : length bs = length g -> pinned_ok lo hi x bs ->
  in_play s additive held bs nbound g h ds damping = (bs', ifree, gn) ->
  ifree = find (fun b => b =? 0) bs' /\ gn = gnorm_free ifree g /\ (oleb O gn (thr s) = true -> can_release O bs' g = false) /\ pinned_ok lo hi x bs'.
Proof.
  intros Hlen P. unfold Minim.in_play.
  set (bs1 := if 0 <? nbound then _ else bs).
  assert (P1 : pinned_ok lo hi x bs1).
  { unfold bs1. destruct (0 <? nbound); [|exact P].
    destruct held; [apply pinned_hold; [exact P|]|]; (apply pinned_release2; [exact Hlen|unfold vneg; rewrite map_length, solve_len; reflexivity|exact P]). }
  destruct ((0 <? count_bound bs1) && oleb O (gnorm_free (find (fun b => b =? 0) bs1) g) (thr s) && can_release O bs1 g) eqn:Hc; intros E; inversion E; subst; clear E.
  - refine (conj eq_refl (conj eq_refl (conj (fun _ => can_release_release1 bs1 g) _))).
    apply pinned_release1; [destruct P, P1; lia|exact P1].
  - refine (conj eq_refl (conj eq_refl (conj _ P1))). intros Hs. rewrite Hs in Hc.
    destruct (0 <? count_bound bs1) eqn:Hn; cbn in Hc; [exact Hc|]. apply can_release_nobound. apply Z.ltb_ge in Hn. exact Hn.
Qed.

Notation lmb_outer := (lmb_outer O cost grad hess solve norm2 isfinite ofnat).
Lemma refresh_cost_log s utd x lg :
  exists lg', refresh cost s utd x (cost x) lg = (cost x, lg') /\ forall lo hi, within lo hi x -> log_ok lo hi lg -> log_ok lo hi lg'.
Proof.
  unfold refresh. destruct (utd <? ensure s); [destruct (0 <? ensure s)|]; eexists; (split; [reflexivity|]); intros lo hi W Hlg;
    [apply Forall_snoc; assumption..|exact Hlg].
Qed.

Definition sound (s : settings (T:=T)) (lo hi : list T) (r : result (T:=T)) : Prop :=
  oleb O (gnorm_free (find (fun b => b =? 0) (r_bs r)) (r_grad r)) (thr s) = true
  /\ can_release O (r_bs r) (r_grad r) = false
  /\ pinned_ok lo hi (r_x r) (r_bs r)
  /\ r_grad r = grad (r_x r).
(* what every exit guarantees; it speaks of the result alone, so that in the loop the recursive call gives it as it stands *)
Definition outer_post (s : settings (T:=T)) (lo hi : list T) (r : result (T:=T)) : Prop :=
  log_ok lo hi (r_log r)
  /\ within lo hi (r_x r)
  /\ (r_status r <> MOutOfFuel -> r_cost r = cost (r_x r) /\ oleb O (r_cost r) (r_start_cost r) = true)
  /\ (r_status r = MSuccess -> sound s lo hi r)
  /\ (0 <= r_iter r /\ (0 < max_it s -> r_iter r <= max_it s)).

Lemma stop_post s lo hi x st gn bs' g lg utd start1 smp it :
  within lo hi x -> log_ok lo hi lg -> oleb O (cost x) start1 = true -> 0 <= it -> (0 < max_it s -> it <= max_it s) ->
  (st = MSuccess -> sound s lo hi (mkResult st x (cost x) start1 gn it smp bs' g lg)) ->
  outer_post s lo hi (let '(c, lg') := refresh cost s utd x (cost x) lg in mkResult st x c start1 gn it smp bs' g lg').
Proof.
  intros W Hlg Hst Hit Hmax Hsound. destruct (refresh_cost_log s utd x lg) as (lg' & -> & Hlg').
  exact (conj (Hlg' lo hi W Hlg) (conj W (conj (fun _ => conj eq_refl Hst) (conj Hsound (conj Hit Hmax))))).
Qed.

Lemma lmb_outer_spec fo : forall fi s additive lo hi x held bs nbound damping it samples start_cost gn log,
  box_ok lo hi -> within lo hi x -> pinned_ok lo hi x bs -> log_ok lo hi log -> 0 <= it -> (0 < max_it s -> it < max_it s) ->
  (it <> 0 -> oleb O (cost x) start_cost = true) ->
  outer_post s lo hi (lmb_outer fo fi s additive lo hi x held bs nbound damping it samples start_cost gn log).
Proof.
  induction fo as [|fo IH]; intros fi s additive lo hi x held bs nbound damping it samples start_cost gn log Hbox W P Hlog Hit Hmax Hstart;
    assert (Hmax' : 0 < max_it s -> it <= max_it s) by lia.
  - refine (conj Hlog (conj W (conj _ (conj _ (conj Hit Hmax'))))); cbn; [intros H; contradiction H; reflexivity|discriminate].
  - cbn [Minim.lmb_outer].
    set (start1 := if it =? 0 then cost x else start_cost).
    assert (Hs1 : oleb O (cost x) start1 = true) by (unfold start1; destruct (Z.eqb_spec it 0); [apply le_refl|apply Hstart; assumption]).
    assert (Hlog1 : log_ok lo hi (log ++ [EvCostGradHess x])) by (apply Forall_snoc; assumption).
    destruct (negb (isfinite (cost x))); [apply stop_post; auto; discriminate|].
    destruct (existsb (fun v => negb (isfinite v)) (grad x)); [apply stop_post; auto; discriminate|].
    destruct (in_play s additive held bs nbound (grad x) (hess x) (mean O ofnat (diag O (hess x))) damping) as [[bs1 ifree] gn1] eqn:Hip.
    apply (in_play_spec lo hi x) in Hip as (-> & Hgn & Hcan & P1); [|rewrite grad_len; apply P|exact P].
    assert (Hlog2 : log_ok lo hi ((log ++ [EvCostGradHess x]) ++ [EvProgress it x (cost x) gn1])) by (apply Forall_snoc; assumption).
    destruct (oleb O gn1 (thr s)) eqn:Hconv.
    { apply stop_post; auto. intros _. rewrite Hgn in Hconv. exact (conj Hconv (conj (Hcan eq_refl) (conj P1 eq_refl))). }
    destruct (lmb_inner fi s additive lo hi x _ _ _ _ (cost x) damping (o1 O) d0 (samples + 1) _) as [nx nc d smp bt ib lg|st d smp lg|] eqn:Ein;
      (eapply lmb_inner_spec in Ein as Hin; [|exact Hbox|exact (proj1 W)|exact Hlog2]).
    + (* accepted step *)
      destruct Hin as (Wn & -> & Hle & Hlg & Hpin).
      assert (Hn1 : oleb O (cost nx) start1 = true) by apply (le_trans _ _ _ Hle Hs1).
      unfold zge. destruct (Z.leb_spec (max_it s) (it + 1)) as [Hm|Hm]; [apply stop_post; auto; [lia|lia|discriminate]|].
      apply IH; try assumption; [|lia|intros _; exact Hm|intros _; exact Hn1].
      apply pinned_flag; [apply Hbox|apply Wn|]. apply Hpin; [exact P1|].
      (* the free variables are the ones that are not flagged *)
      intros j Hj. apply (in_find _ _ _ 0) in Hj. apply Z.eqb_eq, Hj.
    + (* the inner loop gave up *)
      apply stop_post; auto. apply lmb_inner_raises in Ein. destruct Ein; congruence.
    + (* the inner loop ran out of fuel *)
      refine (conj Hlog2 (conj W (conj (fun _ => conj eq_refl Hs1) (conj _ (conj Hit Hmax'))))). discriminate.
Qed.

(* Three facts about a run of the outer loop, kept together because one walk through its control skeleton gives them all.
   D is a set of dampings that the run does not leave and on which the inner loop always ends (MinimTerm.v finds one over the
   reals). *)
Definition run_post (D : T -> Prop) fi s additive lo hi (fo : nat) (it : Z) (damping sc : T) (r : result (T:=T)) : Prop :=
  r_start_cost r = sc
  /\ (it < max_it s -> (Z.to_nat (max_it s - it) <= fo)%nat -> r_status r <> MOutOfFuel)
  /\ (D damping -> (forall d, D (lower_damping O s d)) ->
      (forall x ifree sub_g sub_h ds cf d ps pm smp log, D d -> lmb_inner fi s additive lo hi x ifree sub_g sub_h ds cf d ps pm smp log <> BFuel) ->
      r_status r <> MInnerOutOfFuel).
Lemma run_post_stop D fi s additive lo hi fo it damping sc p st x gn it' smp bs g : st <> MOutOfFuel -> st <> MInnerOutOfFuel ->
  run_post D fi s additive lo hi fo it damping sc (let '(c, lg) := p in mkResult st x c sc gn it' smp bs g lg).
Proof. intros H1 H2. destruct p. split; [reflexivity|split; intros; assumption]. Qed.
Lemma run_post_next D fi s additive lo hi fo it damping d sc sc' r : it + 1 < max_it s -> sc' = sc ->
  run_post D fi s additive lo hi fo (it + 1) (lower_damping O s d) sc' r -> run_post D fi s additive lo hi (S fo) it damping sc r.
Proof.
  intros Hz <- (I1 & I2 & I3). split; [exact I1|].
  split; [intros _ Hf; apply I2; lia|intros _ Hl Hi; apply I3; [apply Hl|exact Hl|exact Hi]].
Qed.
Lemma lmb_outer_run (D : T -> Prop) fo : forall fi s additive lo hi x held bs nbound damping it samples start_cost gn log, 0 <= it ->
  run_post D fi s additive lo hi fo it damping (match fo with 0%nat => start_cost | S _ => if it =? 0 then cost x else start_cost end)
    (lmb_outer fo fi s additive lo hi x held bs nbound damping it samples start_cost gn log).
Proof.
  induction fo as [|fo IH]; intros fi s additive lo hi x held bs nbound damping it samples start_cost gn log Hit;
    [split; [reflexivity|split; [cbn; lia|discriminate]]|].
  cbn [Minim.lmb_outer].
  destruct (negb (isfinite (cost x))); [apply run_post_stop; discriminate|].
  destruct (existsb _ (grad x)); [apply run_post_stop; discriminate|].
  destruct (in_play _ _ _ _ _ _ _ _ _) as [[bs1 ifree] gn1].
  destruct (oleb O gn1 (thr s)); [apply run_post_stop; discriminate|].
  destruct (lmb_inner _ _ _ _ _ _ _ _ _ _ _ _ _ _ _ _) as [nx nc d smp bt ib lg|st d smp lg|] eqn:Ein.
  - unfold zge. destruct (Z.leb_spec (max_it s) (it + 1)) as [Hz|Hz]; [apply run_post_stop; discriminate|].
    eapply run_post_next; [exact Hz| |apply IH; lia].
    destruct fo; [reflexivity|destruct (Z.eqb_spec (it + 1) 0); [lia|reflexivity]].
  - apply lmb_inner_raises in Ein. apply run_post_stop; destruct Ein; congruence.
  - split; [reflexivity|split; [discriminate|]]. intros HD _ Hi. contradiction (Hi _ _ _ _ _ _ _ _ _ _ _ HD Ein).
Qed.

Notation lm_bounded := (lm_bounded O cost grad hess solve norm2 isfinite ofnat).
Lemma valid_bounds_box lo hi x : valid_bounds O lo hi x = true -> box_ok lo hi /\ length x = length lo.
Proof.
  unfold valid_bounds. intros H. apply andb_prop in H as [H H3]. apply andb_prop in H as [H1 H2].
  apply Nat.eqb_eq in H2, H3. apply negb_true_iff in H1.
  split; [|lia]. split; [lia|]. intros j Hj.
  apply (existsb_nth _ _ (n:=j) (d0, d0)) in H1; [|rewrite combine_length; lia]. rewrite combine_nth in H1 by lia.
  exact (le_false _ _ H1).
Qed.
Lemma initial_pinned lo hi x : box_ok lo hi -> length x = length lo -> pinned_ok lo hi (clamp lo hi x) (initial_bs O lo hi x).
Proof.
  intros Hbox Hx. apply pinned_clamp; [exact Hbox|exact Hx|]. apply pinned_flag; [apply Hbox|exact Hx|].
  split; [apply map_length|]. intros j _. rewrite (map_nth (fun _ : T => 0) x d0 j). apply pinned1_free.
Qed.
Lemma lm_bounded_run D fo fi s additive lo hi x m1 inf : valid_bounds O lo hi x = true ->
  run_post D fi s additive lo hi fo 0 (d_start s) (match fo with 0%nat => d0 | S _ => cost (clamp lo hi x) end) (lm_bounded fo fi s additive lo hi x m1 inf).
Proof. intros Hv. unfold Minim.lm_bounded. rewrite Hv. apply lmb_outer_run. reflexivity. Qed.
Theorem lm_bounded_spec fo fi s additive lo hi x m1 inf : valid_bounds O lo hi x = true ->
  outer_post s lo hi (lm_bounded fo fi s additive lo hi x m1 inf).
Proof.
  intros Hv. unfold Minim.lm_bounded. rewrite Hv. destruct (valid_bounds_box lo hi x Hv) as [Hbox Hlen].
  apply lmb_outer_spec; [exact Hbox|apply clamp_within; assumption|apply initial_pinned; assumption|constructor|lia|intros H; exact H|intros H; contradiction H; reflexivity].
Qed.

Theorem bounded_feasible fo fi s additive lo hi x m1 inf : valid_bounds O lo hi x = true ->
  let r := lm_bounded fo fi s additive lo hi x m1 inf in
  (forall e, In e (r_log r) -> within lo hi (ev_state e)) /\ within lo hi (r_x r).
Proof.
  intros Hv r. destruct (lm_bounded_spec fo fi s additive lo hi x m1 inf Hv) as (Hl & R2 & _).
  split; [exact (proj1 (Forall_forall _ _) Hl)|exact R2].
Qed.
Theorem bounded_iterations fo fi s additive lo hi x m1 inf : valid_bounds O lo hi x = true -> 0 < max_it s ->
  0 <= r_iter (lm_bounded fo fi s additive lo hi x m1 inf) <= max_it s.
Proof. intros Hv Hm. destruct (lm_bounded_spec fo fi s additive lo hi x m1 inf Hv) as (_ & _ & _ & _ & R5 & R6). split; [exact R5|apply R6; exact Hm]. Qed.

Notation lm_inner := (lm_inner O cost solve isfinite).
Lemma lm_inner_spec fuel : forall s additive x g h ds cf d ps pm smp log r,
  lm_inner fuel s additive x g h ds cf d ps pm smp log = r ->
  match r with
  | IAccept nx nc d' _ _ => nc = cost nx /\ oleb O nc cf = true /\ exists n, raises s n d = Some d'
  | IStop st _ _ _ => st = MInvalidCost \/ st = MFailedToConverge
  | IFuel => raises s fuel d <> None
  end.
Proof.
  induction fuel as [|fuel IH]; intros s additive x g h ds cf d ps pm smp log r; [intros <-; discriminate|].
  cbn [Minim.lm_inner raises]. destruct (damp_diag _ _ _ _ _ _ _) as [[h' ps'] pm'].
  match goal with |- (if ?c then _ else _) = _ -> _ => destruct c eqn:Hc end.
  - destruct (raise_damping O s d) as [d1|] eqn:Er; [|intros <-; destruct (negb _); [left|right]; reflexivity].
    intros E. apply IH in E. destruct r as [nx nc d' ? ?|st ? ? ?|]; [|exact E|exact E].
    destruct E as (Hnc & Hle & n & E). refine (conj Hnc (conj Hle _)). exists (S n). cbn. rewrite Er. exact E.
  - intros <-. apply orb_false_iff in Hc. destruct Hc as [Hc _]. exact (conj eq_refl (conj (le_false _ _ Hc) (ex_intro _ 0%nat eq_refl))).
Qed.
Definition outer_post_u (s : settings (T:=T)) (it : Z) (r : result (T:=T)) : Prop :=
  (r_status r <> MOutOfFuel -> r_cost r = cost (r_x r) /\ oleb O (r_cost r) (r_start_cost r) = true)
  /\ (r_status r = MSuccess -> oleb O (norm2 (grad (r_x r))) (thr s) = true)
  /\ (it <= r_iter r /\ (it < max_it s -> r_iter r <= max_it s)).
Lemma stop_post_u s x st gn g lg utd start1 smp it :
  oleb O (cost x) start1 = true -> 0 <= it -> (0 < max_it s -> it <= max_it s) ->
  (st = MSuccess -> oleb O (norm2 (grad x)) (thr s) = true) ->
  outer_post_u s 0 (let '(c, lg') := refresh cost s utd x (cost x) lg in mkResult st x c start1 gn it smp [] g lg').
Proof.
  intros Hst Hit Hmax Hsucc. destruct (refresh_cost_log s utd x lg) as (lg' & -> & _).
  exact (conj (fun _ => conj eq_refl Hst) (conj Hsucc (conj Hit Hmax))).
Qed.
Lemma lm_outer_spec fo : forall fi s additive x damping it samples start_cost gn log,
  0 <= it -> (0 < max_it s -> it < max_it s) -> (it <> 0 -> oleb O (cost x) start_cost = true) ->
  outer_post_u s 0 (lm_outer O cost grad hess solve norm2 isfinite ofnat fo fi s additive x damping it samples start_cost gn log).
Proof.
  induction fo as [|fo IH]; intros fi s additive x damping it samples start_cost gn log Hit Hmax Hstart;
    assert (Hmax' : 0 < max_it s -> it <= max_it s) by lia.
  - refine (conj _ (conj _ (conj Hit Hmax'))); cbn; [intros H; contradiction H; reflexivity|discriminate].
  - cbn [lm_outer].
    set (start1 := if it =? 0 then cost x else start_cost).
    assert (Hs1 : oleb O (cost x) start1 = true) by (unfold start1; destruct (Z.eqb_spec it 0); [apply le_refl|apply Hstart; assumption]).
    destruct (negb (isfinite (cost x))); [apply stop_post_u; auto; discriminate|].
    destruct (existsb _ (grad x)); [apply stop_post_u; auto; discriminate|].
    destruct (oleb O (norm2 (grad x)) (thr s)) eqn:Hconv; [apply stop_post_u; auto|].
    destruct (lm_inner _ _ _ _ _ _ _ _ _ _ _ _ _) as [nx nc d smp lg|st d smp lg|] eqn:Hin; apply lm_inner_spec in Hin.
    + destruct Hin as (-> & Hle & _).
      assert (Hn1 : oleb O (cost nx) start1 = true) by apply (le_trans _ _ _ Hle Hs1).
      unfold zge. destruct (Z.leb_spec (max_it s) (it + 1)) as [Hm|Hm]; [apply stop_post_u; auto; [lia|lia|discriminate]|].
      apply IH; [lia|intros _; exact Hm|intros _; exact Hn1].
    + apply stop_post_u; auto. destruct Hin; congruence.
    + refine (conj (fun _ => conj eq_refl Hs1) (conj _ (conj Hit Hmax'))). discriminate.
Qed.

End MinimProofs.
