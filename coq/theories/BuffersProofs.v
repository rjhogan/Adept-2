(* No recording event stores outside the capacities the code computes, from any initial capacity
   k >= 1, as long as the recording code respects the reservation discipline [safe]; and what is
   recorded does not depend on the capacities. *)
From Coq Require Import ZArith List Bool Lia.
From Adept Require Import Buffers.
Import ListNotations.
Local Open Scope Z_scope.

(* the +1 in the test of check_space keeps one slot of the operation stack free *)
Definition BInv (b : buf) : Prop :=
  1 <= cap_ops b /\ 0 <= n_ops b < cap_ops b /\ 1 <= cap_st b /\ 0 <= n_st b <= cap_st b.
Definition slack (b : buf) : Z := cap_ops b - n_ops b - 1.

Lemma grow_ge cap min : 1 <= cap -> 2 * cap <= grow cap min /\ cap + min <= grow cap min.
Proof. intros H. unfold grow. destruct (Z.ltb_spec 0 min), (Z.ltb_spec (2 * cap) (cap + min)); cbn [andb]; lia. Qed.

Lemma binit_eq k : 1 <= k -> binit k = mkBuf 0 k 1 k [] [(-1, 0)].
Proof. intros Hk. unfold binit. cbn. destruct (Z.leb_spec k 0); [lia|]. destruct (Z.leb_spec k 0); [lia|reflexivity]. Qed.

(* [safe] read one event at a time: what the event requires of the credit, and the credit it leaves *)
Definition allowed (c : Z) (e : ev) : bool :=
  match e with
  | EPush _ => 1 <=? c
  | EPushIdx num stride _ => (1 <=? num) && (1 <=? stride) && ((num - 1) * stride + 1 <=? c)
  | ELhsRange n _ => 0 <=? n
  | _ => true
  end.
Definition credit (c : Z) (e : ev) : Z :=
  match e with ECheck n | EPreOps n => Z.max c n | EPush _ | EPushIdx _ _ _ => c - 1 | _ => c end.
Lemma safe_cons c e t : safe c (e :: t) = allowed c e && safe (credit c e) t.
Proof. destruct e; reflexivity. Qed.
Lemma allowed_spec c e : allowed c e = true <->
  match e with
  | EPush _ => 1 <= c
  | EPushIdx num stride _ => 1 <= num /\ 1 <= stride /\ (num - 1) * stride + 1 <= c
  | ELhsRange n _ => 0 <= n
  | _ => True
  end.
Proof. destruct e; cbn [allowed]; rewrite ?andb_true_iff, ?Z.leb_le; tauto. Qed.

Ltac split_cmp := repeat match goal with
  | |- context [?a <=? ?b] => destruct (Z.leb_spec a b)
  | |- context [?a <? ?b] => destruct (Z.ltb_spec a b) end.

(* in every branch of [bstep] the capacity after [grow] covers what the branch needs ([grow_ge]); the rest is arithmetic,
   non-linear only for push_rhs_indices, where 0 <= (num - 1) * stride *)
Lemma step_safe b e c : BInv b -> c <= slack b -> allowed c e = true ->
  snd (bstep b e) = false /\ BInv (fst (bstep b e)) /\ credit c e <= slack (fst (bstep b e)).
Proof.
  intros (H1 & H2 & H3 & H4) Hc Ha. apply allowed_spec in Ha. unfold BInv, slack in *.
  destruct e as [n|id|num stride id|id|n id|n|n]; cbn [credit bstep];
    [pose proof (grow_ge (cap_ops b) n H1)| |assert (0 <= (num - 1) * stride) by nia
    |pose proof (grow_ge (cap_st b) 0 H3)|pose proof (grow_ge (cap_st b) n H3)
    |pose proof (grow_ge (cap_ops b) n H1)|pose proof (grow_ge (cap_st b) n H3)];
    split_cmp; cbn [fst snd n_ops cap_ops n_st cap_st]; lia.
Qed.

(* what a store that is not refused records: counters and payload lists change, by rules that do not mention the capacities *)
Definition content (b : buf) : Z * Z * list Z * list (Z * Z) := (n_ops b, n_st b, ops_rec b, st_rec b).
Definition record (c : Z * Z * list Z * list (Z * Z)) (e : ev) : Z * Z * list Z * list (Z * Z) :=
  let '(no, ns, orec, srec) := c in
  match e with
  | EPush id | EPushIdx _ _ id => (no + 1, ns, orec ++ [id], srec)
  | ELhs id => (no, ns + 1, orec, srec ++ [(id, no)])
  | ELhsRange n id => (no, ns + n, orec, srec ++ range_ids (Z.to_nat n) id no)
  | _ => c
  end.
Lemma step_content b e : snd (bstep b e) = false -> content (fst (bstep b e)) = record (content b) e.
Proof. destruct e; cbn [bstep]; split_cmp; intros [=]; reflexivity. Qed.

Lemma brun_cons b e t : brun b (e :: t) =
  (fst (brun (fst (bstep b e)) t), (if snd (bstep b e) then 1 else 0) + snd (brun (fst (bstep b e)) t)).
Proof. cbn [brun]. destruct (bstep b e) as [b' v]. cbn [fst snd]. destruct (brun b' t) as [b'' k]. reflexivity. Qed.

Theorem run_safe tr : forall b c, BInv b -> c <= slack b -> safe c tr = true ->
  snd (brun b tr) = 0 /\ content (fst (brun b tr)) = fold_left record tr (content b).
Proof.
  induction tr as [|e t IH]; intros b c Hb Hc Hs; [exact (conj eq_refl eq_refl)|].
  rewrite safe_cons in Hs. apply andb_true_iff in Hs. destruct Hs as [Ha Hs].
  destruct (step_safe b e c Hb Hc Ha) as (Hv & Hb' & Hc'). rewrite brun_cons. cbn [fst snd fold_left].
  rewrite Hv, <- (step_content b e Hv). exact (IH _ _ Hb' Hc' Hs).
Qed.

(* from the constructor's buffer: the right side of the second part does not mention the capacity k *)
Lemma run_safe_init k tr : 1 <= k -> safe 0 tr = true ->
  snd (brun (binit k) tr) = 0 /\ content (fst (brun (binit k) tr)) = fold_left record tr (0, 1, [], [(-1, 0)]).
Proof.
  intros Hk Hs. rewrite (binit_eq k Hk).
  apply (run_safe tr (mkBuf 0 k 1 k [] [(-1, 0)]) 0); [unfold BInv; cbn; lia|unfold slack; cbn; lia|exact Hs].
Qed.

Lemma safe_pushes (l : list Z) t : forall c, 0 <= c ->
  safe c (map EPush l ++ t) = (Z.of_nat (length l) <=? c) && safe (c - Z.of_nat (length l)) t.
Proof.
  induction l as [|x l IH]; intros c Hc; cbn [map app length].
  - rewrite Z.sub_0_r. destruct (Z.leb_spec (Z.of_nat 0) c); [reflexivity|lia].
  - rewrite safe_cons, Nat2Z.inj_succ. cbn [allowed credit]. destruct (Z.leb_spec 1 c); cbn [andb].
    + rewrite IH by lia. replace (c - 1 - Z.of_nat (length l)) with (c - Z.succ (Z.of_nat (length l))) by lia.
      f_equal. apply eq_true_iff_eq. rewrite !Z.leb_le. lia.
    + destruct (Z.leb_spec (Z.succ (Z.of_nat (length l))) c); [lia|reflexivity].
Qed.

Lemma safe_mono tr : forall c c', c <= c' -> safe c tr = true -> safe c' tr = true.
Proof.
  induction tr as [|e t IH]; intros c c' Hc; [reflexivity|]. rewrite !safe_cons, !andb_true_iff. intros [Ha Hs]. split.
  - apply allowed_spec. apply allowed_spec in Ha. destruct e; lia.
  - apply (IH (credit c e)); [destruct e; cbn [credit]; lia|exact Hs].
Qed.
Lemma safe_app t1 : forall c t2, 0 <= c -> safe c t1 = true -> safe 0 t2 = true -> safe c (t1 ++ t2) = true.
Proof.
  induction t1 as [|e t IH]; intros c t2 Hc H1 H2; [exact (safe_mono t2 0 c Hc H2)|]. cbn [app].
  rewrite safe_cons, andb_true_iff in *. destruct H1 as [Ha H1]. split; [exact Ha|]. apply IH; [|exact H1|exact H2].
  apply allowed_spec in Ha. destruct e; cbn [credit]; nia.
Qed.

Lemma run_nonneg tr : forall b, 0 <= snd (brun b tr).
Proof.
  induction tr as [|e t IH]; intros b; [cbn; lia|]. rewrite brun_cons. cbn [snd].
  specialize (IH (fst (bstep b e))). destruct (snd (bstep b e)); lia.
Qed.
Lemma pushes_overflow (l : list Z) t : forall b, n_ops b <= cap_ops b -> cap_ops b - n_ops b < Z.of_nat (length l) ->
  0 < snd (brun b (map EPush l ++ t)).
Proof.
  induction l as [|x l IH]; intros b Hb Hl; cbn [map app length] in *; [lia|]. rewrite brun_cons. cbn [snd bstep].
  pose proof (run_nonneg (map EPush l ++ t)) as N. destruct (Z.leb_spec (cap_ops b) (n_ops b)); cbn [fst snd].
  - specialize (N b). lia.
  - apply IH; cbn [n_ops cap_ops]; lia.
Qed.

Definition same_content (b1 b2 : buf) : Prop :=
  n_ops b1 = n_ops b2 /\ n_st b1 = n_st b2 /\ ops_rec b1 = ops_rec b2 /\ st_rec b1 = st_rec b2.
Definition is_prealloc (e : ev) : bool := match e with EPreOps _ | EPreSt _ => true | _ => false end.

Lemma same_content_eq b1 b2 : same_content b1 b2 <-> content b1 = content b2.
Proof. unfold same_content, content. split; [intros (-> & -> & -> & ->); reflexivity|intros [= -> -> -> ->]; auto]. Qed.
