(* C03 (element-wise core): the tape an active array statement records acts on every seed like the tape of the
   scalar program it denotes, and the values are the same. *)
From Coq Require Import ZArith List Ring_theory.
From Adept Require Import ListProofs Scalar Expr Tape TapeAdjoint Program ProgramProofs ArrayStmt.

Section ArrayProofs.
Context {T : Type} (F : FOps T).
Let O := fbase F.
Hypothesis Rth : ring_theory (o0 O) (o1 O) (oadd O) (omul O) (osub O) (oneg O) (@eq T).
Hypothesis Hdiv : forall x y, odiv O x y = omul O x (odiv O (o1 O) y).
Hypothesis Hlit1 : flit F 1 1 = o1 O.

Lemma ainst_same vals u e i :
  is_active (ainst vals e i) = is_active (instantiate vals (to_scalar e i)) /\
  sem F (ainst vals e i) = sem F (instantiate vals (to_scalar e i)) /\
  tangent F u (ainst vals e i) = tangent F u (instantiate vals (to_scalar e i)).
Proof.
  induction e as [[b st|d]|x|c|f a IH|k l IHl r IHr]; cbn [ainst to_scalar instantiate is_active sem tangent]; try (repeat split; reflexivity).
  - destruct IH as (Ha & Hs & Ht). rewrite Ha, Hs, Ht. repeat split; reflexivity.
  - destruct IHl as (Hal & Hsl & Htl). destruct IHr as (Har & Hsr & Htr).
    unfold eff_sr. rewrite Hal, Har, Hsl, Hsr, Htl, Htr. repeat split; reflexivity.
Qed.

Theorem aexec_forward tb ts n e vals0 u0 :
  fst (aexec F tb ts n e vals0) = fst (dexec F (denoted tb ts n e) vals0 u0) /\
  fwd_sweep O (snd (aexec F tb ts n e vals0)) u0 = snd (dexec F (denoted tb ts n e) vals0 u0).
Proof.
  apply (fold_left_sim (fun st d => fst st = fst d /\ fwd_sweep O (snd st) u0 = snd d)); [|split; reflexivity].
  intros [vals tp] [dv dt] i [Hv Ht]. cbn [fst snd] in *. subst dv. cbn [aexec_elem dexec1].
  destruct (ainst_same vals (fun z => dt (Z.to_nat z)) e i) as (_ & <- & <-).
  rewrite (recorded_pair F Rth Hdiv Hlit1). split; [reflexivity|]. cbn [snd].
  rewrite fwd_sweep_snoc, Ht, (recorded_rhs F Rth Hdiv Hlit1). reflexivity.
Qed.
End ArrayProofs.
