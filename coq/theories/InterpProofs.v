(* C20: the interpolation model over the real numbers.  Comparisons of the Ops record are decided with
   Rlt_dec / Rle_dec / Req_EM_T (standard-library classical reals). *)
From Coq Require Import List Bool Rbase Lra Lia.
From Adept Require Import Scalar Interp.
Local Open Scope R_scope.

Definition Rltb (a b : R) : bool := if Rlt_dec a b then true else false.
Definition Rleb (a b : R) : bool := if Rle_dec a b then true else false.
Definition Reqb (a b : R) : bool := if Req_EM_T a b then true else false.
Definition ROps : Ops R := mkOps R 0 1 Rplus Rminus Rmult Rdiv Ropp Reqb Rltb Rleb.
(* stated on the fields of [ROps], which is how the tests occur once a model function is unfolded *)
Lemma oltb_spec a b : reflect (a < b) (oltb ROps a b).
Proof. unfold ROps, Rltb. cbn. destruct (Rlt_dec a b); constructor; assumption. Qed.
Lemma oleb_spec a b : reflect (a <= b) (oleb ROps a b).
Proof. unfold ROps, Rleb. cbn. destruct (Rle_dec a b); constructor; assumption. Qed.
Lemma oeqb_spec a b : reflect (a = b) (oeqb ROps a b).
Proof. unfold ROps, Reqb. cbn. destruct (Req_EM_T a b); constructor; assumption. Qed.

Notation X x j := (xs ROps x j).
Definition increasing (x : list R) : Prop := forall i j, (i < j < length x)%nat -> X x i < X x j.
Definition decreasing (x : list R) : Prop := forall i j, (i < j < length x)%nat -> X x j < X x i.

(* the direction of the coordinates is a parameter, as it is in [bisect] ([interp1_query] computes it from the first two knots): true = increasing.
   [bracket up a b q]: q lies between the knot values a and b, the end towards which the search moves included *)
Definition monotone (up : bool) (x : list R) : Prop := if up then increasing x else decreasing x.
Definition bracket (up : bool) (a b q : R) : Prop := if up then a < q <= b else b <= q < a.
Lemma knots_distinct up x i j : monotone up x -> (i < j < length x)%nat -> X x i <> X x j.
Proof. intros Hm Hij. destruct up; specialize (Hm i j Hij); lra. Qed.
Definition dle (up : bool) (a b : R) : Prop := if up then a <= b else b <= a.
Lemma dle_spec up a b : reflect (dle up a b) (if up then oleb ROps a b else oleb ROps b a).
Proof. destruct up; apply oleb_spec. Qed.
Lemma up_flag up x : monotone up x -> (2 <= length x)%nat -> oltb ROps (X x 0) (X x 1) = up.
Proof. intros Hm Hn. destruct up; specialize (Hm 0%nat 1%nat ltac:(lia)); destruct (oltb_spec (X x 0) (X x 1)); try reflexivity; lra. Qed.

(* the test at a knot m keeps the bracket in the half it selects *)
Lemma bracket_halves up a m b q : bracket up a b q ->
  if (if up then oltb ROps m q else oltb ROps q m) then bracket up m b q else bracket up a m q.
Proof. destruct up; cbn [bracket]; [destruct (oltb_spec m q)|destruct (oltb_spec q m)]; lra. Qed.

Lemma mid_between a b : (S a < b)%nat -> (a < a + (b - a) / 2 < b)%nat.
Proof. pose proof (Nat.div_mod (b - a) 2 ltac:(lia)). pose proof (Nat.mod_upper_bound (b - a) 2 ltac:(lia)).
  lia. Qed.

(* stated with an enclosing range [J0, J1] that the recursion leaves alone, so that the induction hypothesis applies as it is *)
Theorem bisect_bracket up x q J0 J1 : forall fuel jmin jmax, (J0 <= jmin)%nat -> (jmax <= J1)%nat ->
  (jmin < jmax < length x)%nat -> (jmax - jmin <= fuel)%nat -> bracket up (X x jmin) (X x jmax) q ->
  let '(a, b) := bisect ROps fuel up x q jmin jmax in
  b = S a /\ (J0 <= a)%nat /\ (b <= J1)%nat /\ bracket up (X x a) (X x b) q.
Proof.
  induction fuel as [|f IH]; intros jmin jmax H0 H1 Hj Hf Hq; [lia|].
  cbn [bisect]. destruct (Nat.ltb_spec (S jmin) jmax) as [Hgap|Hgap].
  - pose proof (mid_between jmin jmax Hgap) as Hmid. set (m := (jmin + (jmax - jmin) / 2)%nat) in *. clearbody m.
    pose proof (bracket_halves up _ (X x m) _ q Hq) as Hh. destruct (if up then _ else _); (apply IH; [lia..|exact Hh]).
  - repeat split; try lia; exact Hq.
Qed.

Definition chord (t : R) (ya yb : row (T:=R)) : row (T:=R) := map (fun ab => fst ab + t * (snd ab - fst ab)) (combine ya yb).
Lemma lin_row_chord rc x y q a b : X x a <> X x b ->
  lin_row ROps rc x y q a b = chord ((q - X x a) / (X x b - X x a)) (ys y a) (ys y b).
Proof. intros Hne. unfold lin_row, chord. apply map_ext. intros [u v]. destruct rc; simpl; field; lra. Qed.
Lemma chord_ends ya yb : length ya = length yb -> chord 0 ya yb = ya /\ chord 1 ya yb = yb.
Proof. revert yb. induction ya as [|u ya IH]; intros [|v yb] H; simpl in *; try discriminate; [split; reflexivity|].
  destruct (IH yb ltac:(lia)) as [I0 I1]. unfold chord in *. simpl. rewrite I0, I1. split; f_equal; lra. Qed.

Definition rect (y : list (row (T:=R))) : Prop := forall i j, (i < length y)%nat -> (j < length y)%nat -> length (ys y i) = length (ys y j).

Theorem interp1_inside up rc p x y c q : monotone up x -> (2 <= length x)%nat ->
  (if up then X x 0 < q < X x (length x - 1) else X x (length x - 1) < q < X x 0) ->
  exists a, (S a < length x)%nat /\ bracket up (X x a) (X x (S a)) q /\
    interp1_query ROps rc Linear p x y c q = chord ((q - X x a) / (X x (S a) - X x a)) (ys y a) (ys y (S a)).
Proof.
  intros Hm Hn Hq. unfold interp1_query. rewrite (up_flag up x Hm Hn).
  pose proof (bisect_bracket up x q 0%nat (length x - 1)%nat (length x) 0%nat (length x - 1)%nat (le_n _) (le_n _) ltac:(lia) ltac:(lia)) as HB.
  destruct (bisect ROps (length x) up x q 0 (length x - 1)) as [a b].
  destruct HB as (-> & _ & Hb & Hab); [destruct up; cbn; lra|].
  exists a. split; [lia|]. split; [exact Hab|].
  rewrite <- (lin_row_chord rc x y q a (S a)) by (apply (knots_distinct up x); [exact Hm|lia]).
  destruct (dle_spec up q (X x 0)) as [B|_]; [destruct up; cbn in B; lra|].
  destruct (dle_spec up (X x (length x - 1)) q) as [A|_]; [destruct up; cbn in A; lra|]. reflexivity.
Qed.

(* the end-knot test of PConstant is left undecided: at a knot and beyond it the two readings differ *)
Lemma interp1_low up rc p x y c q : monotone up x -> (2 <= length x)%nat -> dle up q (X x 0) ->
  interp1_query ROps rc Linear p x y c q =
  match p with
  | PLinear => chord ((q - X x 0) / (X x 1 - X x 0)) (ys y 0) (ys y 1)
  | PClamp => ys y 0
  | PConstant => if oeqb ROps q (X x 0) then ys y 0 else const_row y c
  end.
Proof.
  intros Hm Hn Hq. unfold interp1_query. rewrite (up_flag up x Hm Hn).
  destruct (dle_spec up q (X x 0)); [|contradiction]. destruct p; try reflexivity. apply lin_row_chord, (knots_distinct up x); [exact Hm|lia].
Qed.
Lemma interp1_high up rc p x y c q : monotone up x -> (2 <= length x)%nat -> dle up (X x (length x - 1)) q ->
  interp1_query ROps rc Linear p x y c q =
  match p with
  | PLinear => chord ((q - X x (length x - 2)) / (X x (length x - 1) - X x (length x - 2))) (ys y (length x - 2)) (ys y (length x - 1))
  | PClamp => ys y (length x - 1)
  | PConstant => if oeqb ROps q (X x (length x - 1)) then ys y (length x - 1) else const_row y c
  end.
Proof.
  intros Hm Hn Hq. unfold interp1_query. rewrite (up_flag up x Hm Hn).
  destruct (dle_spec up q (X x 0)) as [B|_]; [destruct up; specialize (Hm 0%nat (length x - 1)%nat ltac:(lia)); cbn in B, Hq; lra|].
  destruct (dle_spec up (X x (length x - 1)) q); [|contradiction].
  replace (length x - 1 - 1)%nat with (length x - 2)%nat by lia.
  destruct p; try reflexivity. apply lin_row_chord, (knots_distinct up x); [exact Hm|lia].
Qed.

(* an interior knot is found as the far end of its bracket *)
Theorem interp1_at_knot up rc p x y c k : monotone up x -> (2 <= length x)%nat -> length x = length y -> rect y ->
  (k < length x)%nat -> interp1_query ROps rc Linear p x y c (X x k) = ys y k.
Proof.
  intros Hm Hn Hl Hrect Hk.
  destruct (Nat.eq_dec k 0) as [->|Hk0]; [|destruct (Nat.eq_dec k (length x - 1)) as [->|Hkl]].
  - rewrite (interp1_low up) by (assumption || (destruct up; cbn; lra)). destruct p; [|reflexivity|].
    + unfold Rdiv. rewrite Rminus_eq_0, Rmult_0_l. apply chord_ends, Hrect; lia.
    + destruct (oeqb_spec (X x 0) (X x 0)); [reflexivity|congruence].
  - rewrite (interp1_high up) by (assumption || (destruct up; cbn; lra)). destruct p; [|reflexivity|].
    + pose proof (knots_distinct up x (length x - 2) (length x - 1) Hm ltac:(lia)).
      unfold Rdiv. rewrite Rinv_r by lra. apply chord_ends, Hrect; lia.
    + destruct (oeqb_spec (X x (length x - 1)) (X x (length x - 1))); [reflexivity|congruence].
  - destruct (interp1_inside up rc p x y c (X x k) Hm Hn) as (a & Ha & Hab & ->).
    { destruct up; pose proof (Hm 0%nat k ltac:(lia)); pose proof (Hm k (length x - 1)%nat ltac:(lia)); split; assumption. }
    (* k is neither below nor at a, nor beyond S a, since x(k) lies in the half-open bracket *)
    assert (k = S a) as ->.
    { destruct (Nat.lt_trichotomy k (S a)) as [Hlt|[E|Hgt]]; [exfalso|exact E|exfalso].
      - destruct (Nat.eq_dec k a) as [->|Hne]; [destruct up; cbn in Hab; lra|].
        destruct up; pose proof (Hm k a ltac:(lia)); cbn in Hab; lra.
      - destruct up; pose proof (Hm (S a) k ltac:(lia)); cbn in Hab; lra. }
    pose proof (knots_distinct up x a (S a) Hm ltac:(lia)).
    unfold Rdiv. rewrite Rinv_r by lra. apply chord_ends, Hrect; lia.
Qed.

(* the scan stops at jj because jj + 1 is the last knot or because x(jj+1) < q fails: either way q <= x(jj+1); the fuel does not run out *)
Lemma search_up_spec x q : forall fuel jj, (jj + 2 <= length x)%nat -> (length x - 2 - jj < fuel)%nat ->
  X x jj <= q <= X x (length x - 1) ->
  let r := search_up ROps fuel x q jj in (r + 2 <= length x)%nat /\ X x r <= q <= X x (S r).
Proof.
  induction fuel as [|f IH]; intros jj Hj Hf Hq; [lia|]. cbn [search_up].
  destruct (Nat.ltb_spec jj (length x - 2)) as [Hlt|Hge]; cbn [andb].
  - destruct (oltb_spec (X x (S jj)) q) as [H|H]; [apply IH; lia || lra|split; [lia|lra]].
  - replace (S jj) with (length x - 1)%nat by lia. split; [lia|lra].
Qed.
