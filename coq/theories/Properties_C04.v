(* C04 — array statements have element-wise value semantics despite aliasing / layout.
   Model Assign.v: memory, views (View.v), expression trees, the alias test and the element-by-element
   assignment loop of Array::operator=.  [assign_spec]: evaluate every right-hand-side element on the
   initial memory, then store. *)
From Coq Require Import ZArith List Bool Lia.
From Adept Require Import View ViewProofs Assign AssignProofs AssignGen.
From AdeptGen Require Import Gen_Alias.
Import ListNotations.
Local Open Scope Z_scope.

(* every element a view can address lies in the address range used by the alias test, for any rank and any
   sign of each stride *)
Theorem C04_footprint : forall v idx, wfv v -> inb (dims v) idx -> let '(l, h) := data_range v in l <= addr v idx <= h.
Proof. exact footprint. Qed.
Print Assumptions C04_footprint.

(* a negative alias test is sound: the expression (leaves, scalars, element-wise operators, spread,
   outer_product - every node forwards the query) reads nothing inside the target's address window *)
Theorem C04_alias_test_sound : forall e ds, shape e ds -> forall p lo hi, no_noalias e = true -> is_aliased e p lo hi = false ->
  forall m m', agree_outside p lo hi m m' -> forall idx, inb ds idx -> eval e m idx = eval e m' idx.
Proof. exact not_aliased_independent. Qed.
Print Assumptions C04_alias_test_sound.

(* plain assignment: for every target view (any rank, stride signs, overlap with the right-hand side),
   the result is "evaluate the whole right-hand side first, then store"; noalias is the only escape *)
Theorem C04_assign : forall t e m, wfv (vw t) -> shape e (dims (vw t)) -> no_noalias e = true ->
  assign t e m = assign_spec t e m.
Proof.
  intros t e m _ Hs Hn. unfold assign. destruct (data_range (vw t)) as [lo hi] eqn:Er.
  destruct (is_aliased e (par t) lo hi) eqn:Ea; [reflexivity|].
  apply (assign_loop_unaliased t e lo hi); auto using data_range_covers, unaliased_blind.
Qed.
Print Assumptions C04_assign.

(* conditional assignment *)
Theorem C04_where : forall t mask e m, wfv (vw t) -> shape e (dims (vw t)) -> shape mask (dims (vw t)) ->
  no_noalias e = true -> no_noalias mask = true -> assign_where t mask e m = where_spec t mask e m.
Proof.
  intros t mask e m _ Hse Hsm Hne Hnm. unfold assign_where, where_spec. destruct (data_range (vw t)) as [lo hi] eqn:Er.
  destruct (is_aliased e (par t) lo hi || is_aliased mask (par t) lo hi) eqn:Ea; [reflexivity|].
  apply orb_false_iff in Ea. destruct Ea as [Ea Em].
  apply (where_loop_unaliased t mask e lo hi); auto using data_range_covers, unaliased_blind, indices_inb, agree_refl.
Qed.
Print Assumptions C04_where.

(* compound assignment t op= e (executed as t = noalias(t) op e since the repair 2198a7e): the specification for EVERY
   right-hand side, overlapping the target or not, at equal or shifted positions.  Before the repair the statement was
   false of the library and of the faithful model (t = noalias(t op e), kept as assign_op_old) for shifted overlaps *)
Theorem C04_compound : forall o t e m, wfv (vw t) -> inj_view (vw t) -> shape e (dims (vw t)) -> no_noalias e = true ->
  assign_op o t e m = assign_op_spec o t e m.
Proof.
  intros o t e m _ Hinj Hs Hn. unfold assign_op, assign. destruct (data_range (vw t)) as [lo hi] eqn:Er.
  (* noalias hides only the target's own term: the test is the one on e; if it fires the right-hand side is evaluated first *)
  cbn [is_aliased orb]. destruct (is_aliased e (par t) lo hi) eqn:Ea; [reflexivity|].
  apply (compound_loop_unaliased o t e _ lo hi); auto using data_range_covers, unaliased_blind.
Qed.
Print Assumptions C04_compound.
(* ... and what the old form could not do, machine-checked: v(1:3) += v(0:2) on 1..5 *)
Example C04_compound_old_form_refuted_new_form_correct :
  let v b := mkPV 0 (mkView b [3] [1]) in
  let m0 : mem := fun _ a => (a + 1)%Z in
  map (fun a => assign_op_old BAdd (v 1%Z) (ELeaf (v 0%Z)) m0 0%nat a) [0;1;2;3;4]%Z = [1; 3; 6; 10; 5]%Z /\
  map (fun a => assign_op BAdd (v 1%Z) (ELeaf (v 0%Z)) m0 0%nat a) [0;1;2;3;4]%Z = [1; 3; 5; 7; 5]%Z.
Proof. vm_compute. split; reflexivity. Qed.

(* non-vacuity: v(1:3) = v(0:2) + v(2:4) on v = 1..5 - overlapping on both sides, copied through a temporary *)
Example C04_example :
  let v b := mkPV 0 (mkView b [3] [1]) in
  let m0 : mem := fun _ a => a + 1 in
  let e := EBin BAdd (ELeaf (v 0)) (ELeaf (v 2)) in
  shape e [3] /\ map (fun a => assign (v 1) e m0 0%nat a) [0;1;2;3;4] = [1; 4; 6; 8; 5].
Proof. split; [repeat constructor|vm_compute; reflexivity]. Qed.

(* Tie G.  Array::data_range and Array::is_aliased_ as read from Array.h on every run (initial bounds, the sign test on
   each stride, the two bound updates, the overlap comparison) are the model's [data_range] and the array case of
   [is_aliased]; hence every address a view can reach lies inside the range the code computes, and the comparison the
   code makes answers false only for ranges that share no address.  FixedArray reports data_ .. data_+length_-1 and makes
   the same comparison. *)
Theorem C04_generated_alias_test : forall v p lo hi,
  gen_data_range (vw v) = data_range (vw v) /\
  gen_leaf_aliased v p lo hi = is_aliased (ELeaf v) p lo hi /\
  (forall idx, wfv (vw v) -> inb (dims (vw v)) idx ->
     let '(l, h) := gen_data_range (vw v) in l <= addr (vw v) idx <= h) /\
  (forall b t m1 m2 a, al_test b t m1 m2 = false -> b <= a <= t -> m1 <= a <= m2 -> False) /\
  (forall base len b t m1 m2, fdr_begin base len = base /\ fdr_end base len = base + len - 1 /\ fal_test b t m1 m2 = al_test b t m1 m2).
Proof.
  intros v p lo hi. split; [apply gen_data_range_eq|]. split; [apply gen_leaf_aliased_eq|].
  split; [intros idx Hw Hi; rewrite gen_data_range_eq; exact (footprint (vw v) idx Hw Hi)|].
  split; [unfold al_test; lia|].
  (* FixedArray's range and test unfold to these *)
  intros. repeat split.
Qed.
Print Assumptions C04_generated_alias_test.

(* non-vacuity: a reversed 3 x 2 view with a negative row stride *)
Example C04_example_generated_range :
  gen_data_range (mkView 10 [3;2] [-4;1]) = (2, 11) /\ al_test 2 11 12 20 = false /\ al_test 2 11 11 20 = true.
Proof. vm_compute. repeat split. Qed.
