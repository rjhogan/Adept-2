(* C18 — the minimizer never leaves the box and reports what it actually reached.
   Model: Minim.v, the control skeleton of minimize_levenberg_marquardt and minimize_levenberg_marquardt_bounded (both
   dampings), hand-written; tie H: ./check C18 runs the extracted model on doubles against the implementation (LAPACK
   build) and compares the sequence of states passed to the call-backs, status, counts, x, reported cost and norm.
   The user's cost function, gradient and Hessian, the linear solver, the norm and the finiteness test are Section
   variables: the theorems hold for ANY of them ("for any cost function").  About the scalars only a total pre-order is
   assumed (it holds for the reals, C18_feasible_over_the_reals_partial below, and for doubles without NaN), so the statements
   cover rounding: they do not rely on x + frac*dx reaching the bound exactly.
   Second model, tie G: generated/Gen_Minim.v lists, for the three bounded drivers and for line_search /
   line_search_gradient_check, every statement of the CURRENT sources that writes one of the vectors handed to the
   user's call-backs (translated on every run by tools/gen_minim.py); C18_generated_drivers_are_safe re-checks that no
   arithmetic update is left without its clamp, and C18_call_back_states_feasible_* conclude, for ANY control flow, that
   all five algorithms call the user only inside the box.
   Third model, tie H: MinimCG.v, the line search (bracketing, cubic refinement, Wolfe test, error paths) and the
   conjugate-gradient drivers written statement by statement; ./check C18 compares it with the implementation like the
   Levenberg model.  C18_line_search_partial and C18_conjugate_gradient_partial prove feasibility, reported cost and the
   iteration bound for it.
   MinimLBFGS.v holds the L-BFGS drivers in the same style (C18_lbfgs_partial).
   _partial: (1) for conjugate gradient and L-BFGS 'SUCCESS is sound' and 'does not exceed the starting cost' need
   arithmetic the abstract scalar type does not have (Armijo condition; a zero direction component leaves a variable where
   it is) and are checked on every run of the harness, not proved; their feasibility theorems carry the assumption
   SInvokeFree / its analogue for the line search entered without bounds; the unbounded drivers have the reported-cost and iteration theorems.  (2) "the call
   terminates": C18_outer_loop_terminates_partial bounds the outer loop; the inner loop ends when the damping, doubled
   from its restart value, passes its maximum, which is arithmetic the abstract scalar type does not have: it is
   proved over the reals (C18_terminates_over_the_reals_partial), and on doubles the harness observes termination under an alarm. *)
From Coq Require Import List Reals Lra Lia.
From Adept Require Import Scalar Minim MinimProofs MinimReal RealOps MinimFlow MinimFlowProofs MinimCG MinimCGProofs MinimLBFGS MinimLBFGSProofs MinimTerm.
From AdeptGen Require Import Gen_Minim.
Import ListNotations.
Local Open Scope Z_scope.

Section AnyProblem.
Context {T : Type} (O : Ops T).
Variable cost : list T -> T.
Variable grad : list T -> list T.
Variable hess : list T -> list (list T).
Variable solve : list (list T) -> list T -> list T.
Variable norm2 : list T -> T.
Variable isfinite : T -> bool.
Variable ofnat : nat -> T.
Hypothesis le_total : forall a b, oleb O a b = true \/ oleb O b a = true.
Hypothesis le_trans : forall a b c, oleb O a b = true -> oleb O b c = true -> oleb O a c = true.
Hypothesis lt_le : forall a b, oltb O a b = negb (oleb O b a).
Hypothesis grad_len : forall x, length (grad x) = length x.
Hypothesis solve_len : forall m g, length (solve m g) = length g.
Notation run_bounded := (lm_bounded O cost grad hess solve norm2 isfinite ofnat).
Notation run_unbounded := (lm_unbounded O cost grad hess solve norm2 isfinite ofnat).

(* every state passed to a call-back (cost, cost+gradient+Hessian, report_progress) and the returned state lie in the box *)
Theorem C18_feasible_partial : forall fo fi s additive lo hi x m1 inf, valid_bounds O lo hi x = true ->
  let r := run_bounded fo fi s additive lo hi x m1 inf in
  (forall e, In e (r_log r) -> within O lo hi (ev_state e)) /\ within O lo hi (r_x r).
Proof. exact (bounded_feasible O cost grad hess solve norm2 isfinite ofnat le_total le_trans lt_le grad_len solve_len). Qed.
(* the reported cost is the user's cost at the returned state and does not exceed the starting cost, which is the cost at
   the start moved onto the box *)
Theorem C18_reported_cost_partial : forall fo fi s additive lo hi x m1 inf, valid_bounds O lo hi x = true ->
  let r := run_bounded fo fi s additive lo hi x m1 inf in
  r_status r <> MOutOfFuel -> r_cost r = cost (r_x r) /\ oleb O (r_cost r) (r_start_cost r) = true.
Proof using le_total le_trans lt_le grad_len solve_len.
  intros fo fi s additive lo hi x m1 inf Hv. exact (proj1 (proj2 (proj2 (lm_bounded_spec O cost grad hess solve norm2 isfinite ofnat le_total le_trans lt_le grad_len solve_len fo fi s additive lo hi x m1 inf Hv)))).
Qed.
Theorem C18_start_cost_partial : forall fo fi s additive lo hi x m1 inf, valid_bounds O lo hi x = true ->
  r_start_cost (run_bounded (S fo) fi s additive lo hi x m1 inf) = cost (clamp O lo hi x).
Proof using Type.
  intros fo fi s additive lo hi x m1 inf Hv.
  exact (proj1 (lm_bounded_run O cost grad hess solve norm2 isfinite ofnat (fun _ => True) (S fo) fi s additive lo hi x m1 inf Hv)).
Qed.
(* SUCCESS: the norm over the components that are not flagged is at most the threshold, every flagged component is at the
   bound it is flagged for, and no flagged component has a gradient that slopes away from its bound *)
Theorem C18_converged_sound_partial : forall fo fi s additive lo hi x m1 inf, valid_bounds O lo hi x = true ->
  let r := run_bounded fo fi s additive lo hi x m1 inf in r_status r = MSuccess -> sound O grad norm2 s lo hi r.
Proof using le_total le_trans lt_le grad_len solve_len.
  intros fo fi s additive lo hi x m1 inf Hv. exact (proj1 (proj2 (proj2 (proj2 (lm_bounded_spec O cost grad hess solve norm2 isfinite ofnat le_total le_trans lt_le grad_len solve_len fo fi s additive lo hi x m1 inf Hv))))).
Qed.
Theorem C18_iterations_partial : forall fo fi s additive lo hi x m1 inf, valid_bounds O lo hi x = true -> 0 < max_it s ->
  0 <= r_iter (run_bounded fo fi s additive lo hi x m1 inf) <= max_it s.
Proof. exact (bounded_iterations O cost grad hess solve norm2 isfinite ofnat le_total le_trans lt_le grad_len solve_len). Qed.
Theorem C18_outer_loop_terminates_partial : forall fo fi s additive lo hi x m1 inf, valid_bounds O lo hi x = true -> 0 < max_it s -> (Z.to_nat (max_it s) <= fo)%nat ->
  r_status (run_bounded fo fi s additive lo hi x m1 inf) <> MOutOfFuel.
Proof using Type.
  intros fo fi s additive lo hi x m1 inf Hv Hm Hf.
  apply (lm_bounded_run O cost grad hess solve norm2 isfinite ofnat (fun _ => True) fo fi s additive lo hi x m1 inf Hv); [exact Hm|].
  rewrite Z.sub_0_r. exact Hf.
Qed.
(* documented statuses *)
Theorem C18_invalid_bounds_partial : forall fo fi s additive lo hi x m1 inf, valid_bounds O lo hi x = false ->
  let r := run_bounded fo fi s additive lo hi x m1 inf in r_status r = MInvalidBounds /\ r_log r = [] /\ r_x r = x.
Proof using Type. intros * Hv. unfold lm_bounded. rewrite Hv. cbn. repeat split. Qed.
Theorem C18_nonfinite_cost_partial : forall fo fi s additive lo hi x m1 inf, valid_bounds O lo hi x = true -> isfinite (cost (clamp O lo hi x)) = false ->
  let r := run_bounded (S fo) fi s additive lo hi x m1 inf in r_status r = MInvalidCost /\ r_x r = clamp O lo hi x.
Proof using Type.
  intros * Hv Hf. unfold lm_bounded. rewrite Hv. cbn [negb lmb_outer]. rewrite Hf. cbn [negb].
  destruct (refresh _ _ _ _ _ _). split; reflexivity.
Qed.
Theorem C18_nonfinite_gradient_partial : forall fo fi s additive lo hi x m1 inf, valid_bounds O lo hi x = true -> isfinite (cost (clamp O lo hi x)) = true ->
  existsb (fun v => negb (isfinite v)) (grad (clamp O lo hi x)) = true ->
  let r := run_bounded (S fo) fi s additive lo hi x m1 inf in r_status r = MInvalidGradient /\ r_x r = clamp O lo hi x.
Proof using Type.
  intros * Hv Hf Hg. unfold lm_bounded. rewrite Hv. cbn [negb lmb_outer]. rewrite Hf, Hg. cbn [negb].
  destruct (refresh _ _ _ _ _ _). split; reflexivity.
Qed.
(* the unbounded version: reported cost, monotonicity, SUCCESS, iteration count *)
Theorem C18_unbounded_partial : forall fo fi s additive x m1, outer_post_u O cost grad norm2 s 0 (run_unbounded fo fi s additive x m1).
Proof using le_total le_trans.
  intros fo fi s additive x m1. unfold lm_unbounded.
  apply (lm_outer_spec O cost grad hess solve norm2 isfinite ofnat le_total le_trans); [lia|intros H; exact H|intros H; contradiction H; reflexivity].
Qed.
End AnyProblem.
Print Assumptions C18_feasible_partial.
Print Assumptions C18_reported_cost_partial.
Print Assumptions C18_start_cost_partial.
Print Assumptions C18_converged_sound_partial.
Print Assumptions C18_iterations_partial.
Print Assumptions C18_outer_loop_terminates_partial.
Print Assumptions C18_invalid_bounds_partial.
Print Assumptions C18_nonfinite_cost_partial.
Print Assumptions C18_nonfinite_gradient_partial.
Print Assumptions C18_unbounded_partial.

Definition cg_program : list atom := minimize_conjugate_gradient_bounded_atoms ++ line_search_atoms ++ line_search_gradient_check_atoms.
Definition lbfgs_program : list atom := minimize_limited_memory_bfgs_bounded_atoms ++ line_search_atoms ++ line_search_gradient_check_atoms.
Definition lm_program : list atom := minimize_levenberg_marquardt_bounded_atoms.
(* proved on every run about the atoms generated from the current sources: every driver clamps x before its first
   call-back, and no statement updates a state vector arithmetically without clamping it in the next statement; the bounds
   are passed to every callee *)
Theorem C18_generated_drivers_are_safe :
  safe cg_program = true /\ safe lbfgs_program = true /\ safe lm_program = true
  /\ minimize_conjugate_gradient_bounded_entry_ok = true /\ minimize_limited_memory_bfgs_bounded_entry_ok = true /\ minimize_levenberg_marquardt_bounded_entry_ok = true.
Proof. exact (conj eq_refl (conj eq_refl (conj eq_refl (conj eq_refl (conj eq_refl eq_refl))))). Qed.
Section AnyControlFlow.
Context {T : Type} (O : Ops T).
Hypothesis le_total : forall a b, oleb O a b = true \/ oleb O b a = true.
Hypothesis lt_le : forall a b, oltb O a b = negb (oleb O b a).
(* conjugate gradient (both variants) with the line search: whatever the order and number of times its statements run and
   whatever the arithmetic produces, every state handed to a call-back is in the box *)
Theorem C18_call_back_states_feasible_cg_partial : forall lo hi, box_ok O lo hi -> forall tr s s' obs, (forall a, In a tr -> In a cg_program) ->
  all_within O lo hi s -> exec O lo hi s tr s' obs -> Forall (within O lo hi) obs /\ all_within O lo hi s'.
Proof. exact (fun lo hi Hb tr s s' obs => program_safe O le_total lt_le lo hi Hb cg_program tr s s' obs (proj1 C18_generated_drivers_are_safe)). Qed.
Theorem C18_call_back_states_feasible_lbfgs_partial : forall lo hi, box_ok O lo hi -> forall tr s s' obs, (forall a, In a tr -> In a lbfgs_program) ->
  all_within O lo hi s -> exec O lo hi s tr s' obs -> Forall (within O lo hi) obs /\ all_within O lo hi s'.
Proof. exact (fun lo hi Hb tr s s' obs => program_safe O le_total lt_le lo hi Hb lbfgs_program tr s s' obs (proj1 (proj2 C18_generated_drivers_are_safe))). Qed.
Theorem C18_call_back_states_feasible_lm_partial : forall lo hi, box_ok O lo hi -> forall tr s s' obs, (forall a, In a tr -> In a lm_program) ->
  all_within O lo hi s -> exec O lo hi s tr s' obs -> Forall (within O lo hi) obs /\ all_within O lo hi s'.
Proof. exact (fun lo hi Hb tr s s' obs => program_safe O le_total lt_le lo hi Hb lm_program tr s s' obs (proj1 (proj2 (proj2 C18_generated_drivers_are_safe)))). Qed.
End AnyControlFlow.
Print Assumptions C18_generated_drivers_are_safe.
Print Assumptions C18_call_back_states_feasible_cg_partial.
Print Assumptions C18_call_back_states_feasible_lbfgs_partial.
Print Assumptions C18_call_back_states_feasible_lm_partial.

Section ConjugateGradient.
Context {T : Type} (O : Ops T).
Variable cost : list T -> T.
Variable grad : list T -> list T.
Variable norm2 : list T -> T.
Variable osqrt : T -> T.
Variable isfinite : T -> bool.
Hypothesis le_total : forall a b, oleb O a b = true \/ oleb O b a = true.
Hypothesis lt_le : forall a b, oltb O a b = negb (oleb O b a).
(* the line search, for any predicate [good] that holds of the start and of every point x + (ss*ds)*direction (clamped when
   bounds are given): only good states are evaluated, the state left in x is good, and the cost left in cost_function_ is
   the user's cost at that state - through the bracketing and the cubic refinement, the error paths and the iteration limit *)
Theorem C18_line_search_partial : forall s k bnd x dir step0 curv bound_step cost_fn0 (good : list T -> Prop),
  good x -> (forall ds ss, good (point O bnd x dir ds ss)) -> cost_fn0 = cost x ->
  forall gradient utd samples log, Forall good log ->
  post cost good (line_search O cost grad norm2 osqrt isfinite s k bnd x dir step0 curv bound_step cost_fn0 gradient utd samples log).
Proof. exact (line_search_spec O cost grad norm2 osqrt isfinite le_total lt_le). Qed.
(* bounded conjugate gradient (Polak-Ribiere and Fletcher-Reeves): every call-back state and the returned state are in the
   box, the reported cost is the cost at the returned state, the iteration count respects the maximum.  The hypothesis is
   the assumption already made in MinimFlow.v: a line search entered without bounds, which the driver does only when no
   component of the direction points to a finite bound, cannot leave the box *)
Theorem C18_conjugate_gradient_partial : forall lo hi,
  (forall k ds x dir, inbox O lo hi x -> snd (fst (nearest_bound O k ds x lo hi dir 0 (cbig k, -1, 0))) < 0 ->
                      forall ds' ss, inbox O lo hi (point O None x dir ds' ss)) ->
  forall fuel s k fr x m1 inf, valid_bounds O lo hi x = true ->
  let r := cg_bounded O cost grad norm2 osqrt isfinite fuel s k fr lo hi x m1 inf in
  Forall (fun e => inbox O lo hi (ev_state e)) (r_log r) /\ inbox O lo hi (r_x r)
  /\ (r_status r <> MOutOfFuel -> r_cost r = cost (r_x r)) /\ (0 < g_max_it s -> 0 <= r_iter r <= g_max_it s).
Proof using le_total lt_le.
  intros lo hi Hfree fuel s k fr x m1 inf. apply (cg_bounded_spec O cost grad norm2 osqrt isfinite le_total lt_le). exact (fun x dir => Hfree k (norm2 dir) x dir).
Qed.
Theorem C18_conjugate_gradient_invalid_bounds_partial : forall lo hi fuel s k fr x m1 inf, valid_bounds O lo hi x = false ->
  let r := cg_bounded O cost grad norm2 osqrt isfinite fuel s k fr lo hi x m1 inf in r_status r = MInvalidBounds /\ r_log r = [] /\ r_x r = x.
Proof using Type. intros * Hv. unfold cg_bounded. rewrite Hv. cbn. repeat split. Qed.
(* bounded L-BFGS (MinimLBFGS.v: LbfgsData store, two-loop recursion, interpolated curvature coefficient, restart of the
   storage when a bound is met), same statement and same assumption *)
Theorem C18_lbfgs_partial : forall (ofz : Z -> T) lo hi,
  (forall k ds x dir, inbox O lo hi x -> snd (fst (nearest_bound O k ds x lo hi dir 0 (cbig k, -1, 0))) < 0 ->
                      forall ds' ss, inbox O lo hi (point O None x dir ds' ss)) ->
  forall fuel ls k x m1 inf, valid_bounds O lo hi x = true ->
  let r := lbfgs_bounded O cost grad norm2 osqrt isfinite ofz fuel ls k lo hi x m1 inf in
  Forall (fun e => inbox O lo hi (ev_state e)) (r_log r) /\ inbox O lo hi (r_x r)
  /\ (r_status r <> MOutOfFuel -> r_cost r = cost (r_x r)) /\ (0 < g_max_it (lb_cg ls) -> 0 <= r_iter r <= g_max_it (lb_cg ls)).
Proof using le_total lt_le.
  intros ofz lo hi Hfree fuel ls k x m1 inf. apply (lbfgs_bounded_spec O cost grad norm2 osqrt isfinite ofz le_total lt_le). exact (fun x dir => Hfree k (norm2 dir) x dir).
Qed.
Theorem C18_lbfgs_invalid_bounds_partial : forall (ofz : Z -> T) lo hi fuel ls k x m1 inf, valid_bounds O lo hi x = false ->
  let r := lbfgs_bounded O cost grad norm2 osqrt isfinite ofz fuel ls k lo hi x m1 inf in r_status r = MInvalidBounds /\ r_log r = [] /\ r_x r = x.
Proof using Type. intros * Hv. unfold lbfgs_bounded. rewrite Hv. cbn. repeat split. Qed.
(* the unbounded conjugate-gradient and L-BFGS drivers: reported cost and iteration count *)
Theorem C18_conjugate_gradient_unbounded_partial : forall fuel s k fr x m1 inf,
  let r := cg_unbounded O cost grad norm2 osqrt isfinite fuel s k fr x m1 inf in
  (r_status r <> MOutOfFuel -> r_cost r = cost (r_x r)) /\ (0 < g_max_it s -> 0 <= r_iter r <= g_max_it s).
Proof using le_total lt_le.
  intros fuel s k fr x m1 inf. exact (proj2 (proj2 (cg_unbounded_spec O cost grad norm2 osqrt isfinite le_total lt_le fuel s k fr x m1 inf))).
Qed.
Theorem C18_lbfgs_unbounded_partial : forall (ofz : Z -> T) fuel ls k x m1 inf,
  let r := lbfgs_unbounded O cost grad norm2 osqrt isfinite ofz fuel ls k x m1 inf in
  (r_status r <> MOutOfFuel -> r_cost r = cost (r_x r)) /\ (0 < g_max_it (lb_cg ls) -> 0 <= r_iter r <= g_max_it (lb_cg ls)).
Proof using le_total lt_le.
  intros ofz fuel ls k x m1 inf. exact (proj2 (proj2 (lbfgs_unbounded_spec O cost grad norm2 osqrt isfinite ofz le_total lt_le fuel ls k x m1 inf))).
Qed.
End ConjugateGradient.
Print Assumptions C18_conjugate_gradient_unbounded_partial.
Print Assumptions C18_lbfgs_unbounded_partial.
Print Assumptions C18_lbfgs_partial.
Print Assumptions C18_lbfgs_invalid_bounds_partial.
Print Assumptions C18_line_search_partial.
Print Assumptions C18_conjugate_gradient_partial.
Print Assumptions C18_conjugate_gradient_invalid_bounds_partial.

(* "the call terminates", bounded Levenberg family over the reals, for ANY cost function: with max_it outer fuel and K+2
   inner fuel, where dlow * mult^K >= d_max and every damping value that can occur is <= 0 or >= dlow, the model never
   runs out of fuel, i.e. both loops end by themselves *)
Theorem C18_terminates_over_the_reals_partial : forall cost grad hess solve norm2 isfinite ofnat (s : settings (T:=R)) (dlow : R) (K : nat),
  (0 < dlow)%R -> (1 < d_mult s)%R -> (dlow <= d_restart s)%R -> (d_max s <= dlow * d_mult s ^ K)%R ->
  (0 < d_div s)%R -> (dlow * d_div s <= d_min s)%R ->
  forall fo fi additive lo hi x m1 inf, dok dlow (d_start s) -> 0 < max_it s -> (Z.to_nat (max_it s) <= fo)%nat -> (K + 2 <= fi)%nat ->
  let r := lm_bounded RO cost grad hess solve norm2 isfinite ofnat fo fi s additive lo hi x m1 inf in
  r_status r <> MOutOfFuel /\ r_status r <> MInnerOutOfFuel.
Proof. exact lm_bounded_terminates. Qed.
Print Assumptions C18_terminates_over_the_reals_partial.
(* its hypotheses hold for the default settings of Minimizer.h (damping min 1/128, max 1e5, multiplier 2, divider 5, start 0,
   restart 1/4) with dlow = 1/640 and K = 26: at most 28 trials in an inner loop *)
Example C18_default_settings_terminate :
  let s := mkSettings 100 (-1)%R (/10)%R (-1) (/128)%R 100000%R 2%R 5%R 0%R (/4)%R in
  (0 < /640)%R /\ (1 < d_mult s)%R /\ (/640 <= d_restart s)%R /\ (d_max s <= /640 * d_mult s ^ 26)%R /\ (0 < d_div s)%R
  /\ (/640 * d_div s <= d_min s)%R /\ dok (/640) (d_start s).
Proof. cbn [d_mult d_restart d_max d_div d_min d_start]. unfold dok. repeat split; lra. Qed.

(* the order hypotheses are met by the real numbers: feasibility for every real cost function *)
Theorem C18_feasible_over_the_reals_partial : forall cost grad hess solve norm2 isfinite ofnat,
  (forall x, length (grad x) = length x) -> (forall m g, length (solve m g) = length g) ->
  forall fo fi s additive lo hi x m1 inf, valid_bounds RO lo hi x = true ->
  let r := lm_bounded RO cost grad hess solve norm2 isfinite ofnat fo fi s additive lo hi x m1 inf in
  (forall e, In e (r_log r) -> within RO lo hi (ev_state e)) /\ within RO lo hi (r_x r).
Proof. exact (fun cost grad hess solve norm2 isfinite ofnat Hg Hs => bounded_feasible RO cost grad hess solve norm2 isfinite ofnat RO_le_total RO_le_trans RO_lt_le Hg Hs). Qed.
Print Assumptions C18_feasible_over_the_reals_partial.

(* non-vacuity: over the integers (a total order), f(x) = (x-6)^2 on the box [0,6] from x = 0 with an exact Newton solver: the
   step is cut at the upper bound, the variable is flagged there, and the run ends with SUCCESS at the bound *)
Example C18_example :
  let cost := fun x : list Z => (nth 0 x 0 - 6) * (nth 0 x 0 - 6) in
  let grad := fun x : list Z => [2 * (nth 0 x 0 - 6)] in
  let hess := fun _ : list Z => [[2]] in
  let solve := fun (m : list (list Z)) (g : list Z) => [nth 0 g 0 / nth 0 (nth 0 m []) 1] in
  let s := mkSettings 10 (-1) 0 (-1) 0 100 2 5 0 1 in
  let r := lm_bounded ZOps cost grad hess solve (fun g => Z.abs (nth 0 g 0)) (fun _ => true) Z.of_nat 12 8 s false [0] [6] [0] (-1) 1000000 in
  valid_bounds ZOps [0] [6] [0] = true /\ r_status r = MSuccess /\ r_x r = [6] /\ r_bs r = [1] /\ r_cost r = 0 /\ r_iter r = 1.
Proof. vm_compute. repeat split. Qed.
