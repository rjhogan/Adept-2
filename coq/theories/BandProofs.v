(* C15: with the start pointer, leading dimension, (KL,KU) and wrapper arguments that the translator reads from the sources,
   what ?gbmv computes for row i is the defining sum over the stored band of the engine, for both storage orders, every
   dimension, every number of sub- and super-diagonals and every engine offset; and the triangle ?symv / ?symm read is
   the one the symmetric engine stores. *)
From Coq Require Import ZArith Lia.
From Adept Require Import Scalar MatmulProofs Band.
From AdeptGen Require Import Gen_Band Gen_Engines.
Local Open Scope Z_scope.

Lemma inband_transpose KL KU i j : inband KU KL j i = inband KL KU i j.
Proof. unfold inband. lia. Qed.
Lemma stored_inband (row_major : bool) L U i j : stored (if row_major then BandR else BandC) L U i j = inband L U i j.
Proof. unfold inband. destruct row_major; cbn [stored]; lia. Qed.

Section BandProofs.
Context {T : Type} (O : Ops T).
Theorem band_mv_correct (row_major : bool) (L U dim : Z) (mem : Z -> T) (left_ptr left_offset x0 incx i : Z) :
  adept_band_mv O row_major L U dim mem left_ptr left_offset x0 incx i = band_mv_spec O row_major L U dim mem left_ptr left_offset x0 incx i.
Proof.
  unfold adept_band_mv, band_mv_spec, cppblas_gbmv_cell, band_call_kl_ku, band_start_shift, band_lda.
  destruct row_major; cbn [fst snd gbmv_row_major_args gbmv_col_major_args negb f_gbmv_cell];
    apply (zsum_ext O); intros j _.
  - (* row-major: ?gbmv Trans on the transposed band, KL and KU exchanged *)
    rewrite inband_transpose, <- (stored_inband true). destruct (stored _ L U i j); [|reflexivity]. unfold index. f_equal. f_equal. lia.
  - rewrite <- (stored_inband false). destruct (stored _ L U i j); [|reflexivity]. unfold index. f_equal. f_equal. lia.
Qed.

Theorem band_mm_correct (row_major : bool) (L U dim : Z) (mem : Z -> T) (left_ptr left_offset x0 roff0 roff1 i c : Z) :
  adept_band_mm O row_major L U dim mem left_ptr left_offset x0 roff0 roff1 i c = band_mm_spec O row_major L U dim mem left_ptr left_offset x0 roff0 roff1 i c.
Proof.
  unfold adept_band_mm. rewrite band_mv_correct. unfold band_mv_spec, band_mm_spec, band_mm_x_start, band_mm_incx.
  apply (zsum_ext O). intros j _. destruct (stored _ L U i j); [|reflexivity]. f_equal. f_equal. lia.
Qed.

(* a symmetric engine that stores the lower triangle by rows holds, for a column-major reader, the upper triangle (and
   conversely): so the flag [upper] of [symv_read] is the engine's [row_lower], and ?symv / ?symm, which mirror that
   triangle, read the engine's own element for every (i,k) *)
Lemma symv_read_engine (row_lower : bool) (mem : Z -> T) (a0 off i k : Z) :
  symv_read row_lower mem a0 off i k = mem (a0 + index (if row_lower then SymLo else SymUp) 0 0 i k off).
Proof.
  (* on the diagonal both branches give one address, but only once i = k is put in (i * off is not linear); off it the two
     tests agree *)
  unfold symv_read, index. destruct (Z.eq_dec i k) as [->|Hne].
  - destruct row_lower; rewrite ?Z.geb_leb, Z.leb_refl; f_equal; lia.
  - destruct row_lower; [destruct (Z.leb_spec i k), (Z.geb_spec i k)|destruct (Z.leb_spec k i), (Z.leb_spec i k)]; f_equal; lia.
Qed.
Lemma symv_read_sym upper (mem : Z -> T) a0 lda i k : symv_read upper mem a0 lda i k = symv_read upper mem a0 lda k i.
Proof.
  unfold symv_read. destruct (Z.eq_dec i k) as [->|Hne]; [reflexivity|].
  destruct (Z.leb_spec i k), (Z.leb_spec k i); reflexivity || lia.
Qed.
End BandProofs.
