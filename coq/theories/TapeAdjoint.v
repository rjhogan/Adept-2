(* Core lemma shared by C01, C02, C13: the reverse sweep is the transpose of the forward sweep,
   <rev t v, u> = <v, fwd t u>, for every tape whose indices are below n, over any commutative
   ring.  The "a != 0" shortcut of compute_adjoint is shown sound. *)
From Coq Require Import List Arith Lia Ring.
From Adept Require Import Scalar Tape.
Import ListNotations.

Section Adj.
Context {T : Type} (O : Ops T).
Hypothesis Rth : ring_theory (o0 O) (o1 O) (oadd O) (omul O) (osub O) (oneg O) (@eq T).
(* the only fact used about the comparison: "a == 0.0" true means a is the ring zero *)
Hypothesis eqb_true : forall a b, oeqb O a b = true -> a = b.
Add Ring Tring : Rth.
Notation "x + y" := (oadd O x y). Notation "x * y" := (omul O x y).
Notation "0" := (o0 O). Notation "1" := (o1 O).
Notation upd := (upd (T:=T)). Notation dot := (dot O). Notation rhs_val := (rhs_val O).
Notation scatter := (scatter O). Notation fwd1 := (fwd1 O). Notation rev1 := (rev1 O).

Lemma dot_ext n v v' u u' : (forall i, i < n -> v i = v' i) -> (forall i, i < n -> u i = u' i) ->
  dot n v u = dot n v' u'.
Proof. induction n as [|n IH]; intros H H'; simpl; [reflexivity|].
  rewrite IH, (H n), (H' n) by auto with arith. reflexivity. Qed.
Lemma upd_other g j x i : i <> j -> upd g j x i = g i.
Proof. intros H. unfold Tape.upd. destruct (Nat.eqb_spec i j); [contradiction|reflexivity]. Qed.
Lemma upd_same g j x : upd g j x j = x.
Proof. unfold Tape.upd. rewrite Nat.eqb_refl. reflexivity. Qed.
Lemma upd_ext g g' j x x' : (forall i, g i = g' i) -> x = x' -> forall i, upd g j x i = upd g' j x' i.
Proof. intros H E i. unfold Tape.upd. destruct (Nat.eqb i j); [exact E|apply H]. Qed.

Lemma dot_comm n v u : dot n v u = dot n u v.
Proof. induction n as [|n IH]; simpl; [reflexivity|]. rewrite IH. ring. Qed.
Lemma dot_upd n v u j x : j < n -> dot n (upd v j x) u = dot n v u + osub O x (v j) * u j.
Proof.
  induction n as [|n IH]; intros Hj; [lia|]. simpl.
  destruct (Nat.eq_dec n j) as [->|Hne].
  - rewrite upd_same. rewrite (dot_ext j (upd v j x) v u u); [ring| |reflexivity].
    intros i Hi. apply upd_other. lia.
  - rewrite upd_other, IH by lia. ring.
Qed.
Lemma dot_upd_right n v u j x : j < n -> dot n v (upd u j x) = dot n v u + v j * osub O x (u j).
Proof. intros Hj. rewrite (dot_comm n v), dot_upd, (dot_comm n u) by exact Hj. ring. Qed.
Lemma dot_upd_l n v u j x : j < n -> dot n (upd v j x) u + v j * u j = dot n v u + x * u j.
Proof. intros Hj. rewrite dot_upd by exact Hj. ring. Qed.
Lemma dot_upd_r n v u j x : j < n -> dot n v (upd u j x) + v j * u j = dot n v u + v j * x.
Proof. intros Hj. rewrite dot_upd_right by exact Hj. ring. Qed.

Lemma fold_acc o g a0 : fold_left (fun a mi => a + fst mi * g (snd mi)) o a0 = a0 + rhs_val o g.
Proof. unfold Tape.rhs_val. revert a0. induction o as [|mi o IH]; intros a0; simpl; [ring|].
  rewrite IH, (IH (0 + _)). ring. Qed.
Lemma rhs_val_cons mi o g : rhs_val (mi :: o) g = fst mi * g (snd mi) + rhs_val o g.
Proof. unfold Tape.rhs_val at 1. simpl. rewrite fold_acc. ring. Qed.
Lemma rhs_val_nil g : rhs_val [] g = 0.
Proof. reflexivity. Qed.
Lemma rhs_val_app a b g : rhs_val (a ++ b) g = rhs_val a g + rhs_val b g.
Proof. unfold Tape.rhs_val at 1. rewrite fold_left_app. apply fold_acc. Qed.
Lemma scatter_cons a mi o g : scatter a (mi :: o) g = scatter a o (upd g (snd mi) (g (snd mi) + fst mi * a)).
Proof. reflexivity. Qed.
Lemma fwd_sweep_app a b g : fwd_sweep O (a ++ b) g = fwd_sweep O b (fwd_sweep O a g).
Proof. apply fold_left_app. Qed.
Lemma fwd_sweep_snoc t l o g : fwd_sweep O (t ++ [mkStmt l o]) g = upd (fwd_sweep O t g) l (rhs_val o (fwd_sweep O t g)).
Proof. apply fwd_sweep_app. Qed.

Lemma dot_scatter n a o : forall v u, Forall (fun mi => snd mi < n) o ->
  dot n (scatter a o v) u = dot n v u + a * rhs_val o u.
Proof.
  intros v u Hf. revert v. induction Hf as [|mi o Hlt _ IH]; intros v.
  - simpl. rewrite rhs_val_nil. ring.
  - rewrite scatter_cons, IH, rhs_val_cons, dot_upd by exact Hlt. ring.
Qed.

Lemma scatter_zero o : forall g i, scatter 0 o g i = g i.
Proof.
  induction o as [|mi o IH]; intros g i; [reflexivity|]. rewrite scatter_cons, IH.
  destruct (Nat.eq_dec i (snd mi)) as [->|Hne]; [rewrite upd_same; ring|apply upd_other, Hne].
Qed.

(* add_derivative_dependence and append_derivative_dependence leave the zero multipliers out of the statement they record *)
Lemma rhs_val_drop_zeros o g : rhs_val (drop_zeros O o) g = rhs_val o g.
Proof.
  induction o as [|mi o IH]; [reflexivity|]. rewrite rhs_val_cons, <- IH. unfold Tape.drop_zeros. cbn [filter].
  destruct (oeqb O (fst mi) 0) eqn:E; cbn [negb]; [apply eqb_true in E; rewrite E; ring|apply rhs_val_cons].
Qed.

Definition rev1_plain (s : stmt) (g : vec) : vec := scatter (g (lhs s)) (rhs s) (upd g (lhs s) 0).
Lemma rev1_shortcut s g i : rev1 s g i = rev1_plain s g i.
Proof.
  unfold Tape.rev1, rev1_plain. destruct (oeqb O (g (lhs s)) 0) eqn:E; [|reflexivity].
  apply eqb_true in E. rewrite E. symmetry. apply scatter_zero.
Qed.

Lemma adj1 n s v u : wf_stmt n s -> dot n (rev1 s v) u = dot n v (fwd1 s u).
Proof.
  intros [Hl Hf]. rewrite (dot_ext n (rev1 s v) (rev1_plain s v) u u);
    [|intros; apply rev1_shortcut|reflexivity].
  unfold rev1_plain, Tape.fwd1. rewrite dot_scatter, dot_upd, dot_upd_right by assumption. ring.
Qed.

Theorem adjoint_identity n t : Forall (wf_stmt n) t ->
  forall v u, dot n (rev_sweep O t v) u = dot n v (fwd_sweep O t u).
Proof.
  induction 1 as [|s t Hs _ IH]; intros v u; simpl; [reflexivity|].
  rewrite adj1 by exact Hs. apply IH.
Qed.

Lemma dot_zero_r n v : dot n v (fun _ => 0) = 0.
Proof. induction n as [|n IH]; simpl; [reflexivity|]. rewrite IH. ring. Qed.
Lemma dot_unit_r n v k : k < n -> dot n v (unit_vec O k) = v k.
Proof. intros Hk. change (unit_vec O k) with (upd (fun _ => 0) k 1). rewrite dot_upd_right, dot_zero_r by exact Hk. ring. Qed.
Lemma dot_unit_l n u k : k < n -> dot n (unit_vec O k) u = u k.
Proof. rewrite dot_comm. apply dot_unit_r. Qed.

Theorem reverse_entry_eq_forward_entry n t d i : Forall (wf_stmt n) t -> d < n -> i < n ->
  rev_sweep O t (unit_vec O d) i = fwd_sweep O t (unit_vec O i) d.
Proof.
  intros Hw Hd Hi. rewrite <- (dot_unit_r n _ i Hi), <- (dot_unit_l n _ d Hd). apply adjoint_identity. exact Hw.
Qed.

Lemma rhs_val_ext o g g' : (forall j, g j = g' j) -> rhs_val o g = rhs_val o g'.
Proof. intros H. unfold Tape.rhs_val. generalize 0. induction o as [|mi o IH]; intros a; simpl; [reflexivity|].
  rewrite H. apply IH. Qed.
Lemma fwd1_ext s g g' : (forall j, g j = g' j) -> forall j, fwd1 s g j = fwd1 s g' j.
Proof. intros H. unfold Tape.fwd1. apply upd_ext; [exact H|apply rhs_val_ext, H]. Qed.
Lemma fwd_ext t : forall g g', (forall j, g j = g' j) -> forall j, fwd_sweep O t g j = fwd_sweep O t g' j.
Proof. induction t as [|s t IH]; intros g g' H j; simpl; [apply H|]. apply IH. apply fwd1_ext. exact H. Qed.
Lemma scatter_ext a o : forall g g', (forall j, g j = g' j) -> forall j, scatter a o g j = scatter a o g' j.
Proof. induction o as [|mi o IH]; intros g g' H; [exact H|]. rewrite !scatter_cons.
  apply IH, upd_ext; [exact H|]. rewrite H. reflexivity. Qed.
Lemma rev1_ext s g g' : (forall j, g j = g' j) -> forall j, rev1 s g j = rev1 s g' j.
Proof. intros H. pose proof (upd_ext g g' (lhs s) 0 0 H eq_refl) as H0.
  unfold Tape.rev1. rewrite (H (lhs s)). destruct (oeqb O (g' (lhs s)) 0); [exact H0|apply scatter_ext, H0]. Qed.
Lemma rev_ext t : forall g g', (forall j, g j = g' j) -> forall j, rev_sweep O t g j = rev_sweep O t g' j.
Proof. induction t as [|s t IH]; intros g g' H j; simpl; [apply H|]. apply rev1_ext. apply IH. exact H. Qed.
End Adj.
