(* C05 (logic part): the lemmas from which Properties_C05.v proves that the three loops of a vectorized row cover every element exactly once, the packet
   body is a whole number of packets, and every packet access of every operand that took part in the
   negotiation is aligned. *)
From Coq Require Import ZArith List Bool Lia.
From Adept Require Import ListProofs VecSplit.
Local Open Scope Z_scope.

Lemma align_off_range w a : 0 < w -> 0 <= align_off w a < w.
Proof. intros H. unfold align_off. apply Z.mod_pos_bound. exact H. Qed.
Lemma align_off_aligned w a : 0 < w -> (a + align_off w a) mod w = 0.
Proof.
  intros H. unfold align_off. rewrite Z.add_mod_idemp_r by lia.
  replace (a + (w - a mod w)) with ((a / w + 1) * w) by (pose proof (Z.div_mod a w); lia). apply Z.mod_mul. lia.
Qed.

(* off <= n is all the three loops need of the row; the code asks for 2 w <= n (VecSplit.eligible) *)
Lemma split_accepted w n off : 0 < w -> 0 <= off <= n ->
  exists q, split w n off off = (off, off + w * q) /\ 0 <= q /\ off + w * q <= n < off + w * q + w.
Proof.
  intros Hw Ho. exists ((n - off) / w). unfold split. destruct (Z.ltb_spec off 0); [lia|]. rewrite Z.eqb_refl. simpl.
  pose proof (Z.div_mod (n - off) w ltac:(lia)). pose proof (Z.mod_pos_bound (n - off) w Hw).
  split; [f_equal; lia|]. split; [apply Z.div_pos; lia|lia].
Qed.
Lemma packets_div w q : 0 < w -> (w * q) / w = q /\ (w * q) mod w = 0.
Proof. intros Hw. rewrite Z.mul_comm. split; [apply Z.div_mul|apply Z.mod_mul]; lia. Qed.

(* a non-empty body means the negotiation was accepted *)
Lemma split_nonempty {w n r l s e} : split w n r l = (s, e) -> s < e -> 0 <= r /\ r = l /\ s = r.
Proof.
  unfold split. destruct (Z.ltb_spec r 0), (Z.eqb_spec r l); cbn; intros [= <- <-] Hlt; lia.
Qed.
(* the negotiated offset is a clash (-1) or lies in 0..w *)
Lemma combine_all_range w offs : 0 < w -> (forall o, In o offs -> 0 <= o <= w) ->
  combine_all w offs = -1 \/ 0 <= combine_all w offs <= w.
Proof.
  intros Hw Hb. induction offs as [|o0 t IH]; cbn [combine_all]; [lia|].
  pose proof (Hb o0 (or_introl eq_refl)). specialize (IH (fun o Ho => Hb o (or_intror Ho))).
  unfold combine_off. destruct (o0 =? combine_all w t), (o0 =? w), (combine_all w t =? w); lia.
Qed.
(* when it is not a clash every operand has that offset or does not care (scalars answer w); in particular the answer w
   means that no operand cares *)
Theorem combine_all_sound w offs : 0 < w -> 0 <= combine_all w offs -> forall o, In o offs -> o = combine_all w offs \/ o = w.
Proof.
  intros Hw. induction offs as [|o0 t IH]; cbn [combine_all]; [intros _ o []|]. unfold combine_off.
  destruct (Z.eqb_spec o0 (combine_all w t)); [|destruct (Z.eqb_spec o0 w); [|destruct (Z.eqb_spec (combine_all w t) w)]];
    intros Hr o [<-|Ho]; try lia; destruct (IH ltac:(lia) o Ho); lia.
Qed.

Lemma combine_off_comm w a b : combine_off w a b = combine_off w b a.
Proof.
  unfold combine_off. rewrite (Z.eqb_sym b a). destruct (Z.eqb_spec a b); [assumption|].
  destruct (Z.eqb_spec a w), (Z.eqb_spec b w); congruence.
Qed.
Lemma combine_off_w_l w a : combine_off w w a = a.
Proof. unfold combine_off. destruct (Z.eqb_spec w a); [assumption|]. rewrite Z.eqb_refl. reflexivity. Qed.
(* w is the unit; away from it the rule is "equal or clash", and the clash is not the unit *)
Lemma combine_off_strict w a b : a <> w -> b <> w -> combine_off w a b = if a =? b then a else -1.
Proof. intros Ha Hb. unfold combine_off. destruct (Z.eqb_spec a w), (Z.eqb_spec b w); congruence. Qed.
Lemma combine_off_assoc w a b c : 0 < w -> combine_off w (combine_off w a b) c = combine_off w a (combine_off w b c).
Proof.
  intros Hw.
  destruct (Z.eq_dec a w) as [->|Ha]; [rewrite !combine_off_w_l; reflexivity|].
  destruct (Z.eq_dec b w) as [->|Hb]; [rewrite combine_off_w_l, (combine_off_comm w a w), combine_off_w_l; reflexivity|].
  destruct (Z.eq_dec c w) as [->|Hc]; [rewrite !(combine_off_comm w _ w), !combine_off_w_l; reflexivity|].
  assert (Hm : -1 <> w) by lia.
  rewrite (combine_off_strict w a b), (combine_off_strict w b c) by assumption.
  destruct (Z.eqb_spec a b), (Z.eqb_spec b c); rewrite !combine_off_strict by congruence;
    repeat match goal with |- context [Z.eqb ?x ?y] => destruct (Z.eqb_spec x y) end; congruence.
Qed.
Lemma combine_all_app w l1 l2 : 0 < w -> combine_all w (l1 ++ l2) = combine_off w (combine_all w l1) (combine_all w l2).
Proof.
  intros Hw. induction l1 as [|o t IH]; cbn [combine_all app].
  - rewrite combine_off_w_l. reflexivity.
  - rewrite IH, combine_off_assoc by exact Hw. reflexivity.
Qed.
(* the shape of the expression tree does not matter: the answer is the combination of the leaves *)
Theorem voff_leaves w e : 0 < w -> voff w e = combine_all w (map (align_off w) (leaves e)).
Proof.
  intros Hw. induction e as [a c| |a IH|l IHl r IHr]; cbn [voff leaves map combine_all].
  - rewrite combine_off_comm, combine_off_w_l. reflexivity.
  - reflexivity.
  - exact IH.
  - rewrite map_app, combine_all_app, IHl, IHr by exact Hw. reflexivity.
Qed.
(* an expression with an array leaf answers that leaf's offset, or a clash: the leaf cares, so "don't care" is out *)
Theorem expr_off_leaf w e a : 0 < w -> In a (leaves e) -> 0 <= expr_off w e -> expr_off w e = align_off w a.
Proof.
  intros Hw Ha. unfold expr_off. rewrite voff_leaves by exact Hw. set (offs := map (align_off w) (leaves e)).
  pose proof (align_off_range w a Hw).
  destruct (Z.ltb_spec (combine_all w offs) w); intros Hnn; destruct (combine_all_sound w offs Hw ltac:(lia) _ (in_map _ _ _ Ha)); lia.
Qed.
Lemma map_seq_blocks {A} (f : nat -> A) a w p :
  flat_map (fun k => map f (seq (a + w * k) w)) (seq 0 p) = map f (seq a (w * p)).
Proof. rewrite <- seq_blocks, !flat_map_concat_map, concat_map, map_map. reflexivity. Qed.
Section ReduceProofs.
  Context {A : Type} (op : A -> A -> A) (e0 : A).
  Hypothesis op_assoc : forall a b c, op (op a b) c = op a (op b c).
  Hypothesis op_comm : forall a b, op a b = op b a.
  Hypothesis op_e0 : forall a, op e0 a = a.
  Local Notation big l := (fold_right op e0 l).
  Lemma fold_left_big {B} (g : B -> A) l acc : fold_left (fun a i => op a (g i)) l acc = op acc (big (map g l)).
  Proof.
    revert acc. induction l as [|x l IH]; intros acc; cbn [fold_left map fold_right].
    - rewrite op_comm, op_e0. reflexivity.
    - rewrite IH, op_assoc. reflexivity.
  Qed.
  Lemma big_app l1 l2 : big (l1 ++ l2) = op (big l1) (big l2).
  Proof. induction l1 as [|x l IH]; cbn [app fold_right]; [rewrite op_e0|rewrite IH, op_assoc]; reflexivity. Qed.
  Lemma big_map_op {B} (g h : B -> A) l : big (map (fun x => op (g x) (h x)) l) = op (big (map g l)) (big (map h l)).
  Proof.
    induction l as [|x l IH]; cbn [map fold_right]; [rewrite op_e0; reflexivity|]. rewrite IH.
    rewrite !op_assoc. f_equal. rewrite <- !op_assoc. f_equal. apply op_comm.
  Qed.
  Lemma big_unit {B} (l : list B) : big (map (fun _ => e0) l) = e0.
  Proof. induction l as [|x l IH]; cbn [map fold_right]; [|rewrite op_e0]; auto. Qed.
  Lemma lane_total_big (f : nat -> A) s w p lane : lane_total op e0 f s w p lane = big (map (fun k => f (s + w * k + lane)%nat) (seq 0 p)).
  Proof. unfold lane_total. rewrite fold_left_big. apply op_e0. Qed.
  (* the w lane accumulators together hold the packet body: one more packet multiplies lane by lane *)
  Lemma lanes_hold_body (f : nat -> A) s w p : big (map (lane_total op e0 f s w p) (seq 0 w)) = big (map f (seq s (w * p))).
  Proof.
    rewrite (map_ext _ _ (lane_total_big f s w p)). induction p as [|p IH].
    - rewrite Nat.mul_0_r. apply big_unit.
    - replace (w * S p)%nat with (w * p + w)%nat by lia. rewrite seq_app, map_app, big_app, <- IH.
      rewrite <- (seq_offset (s + w * p) w), map_map, <- big_map_op.
      f_equal. apply map_ext. intros lane. rewrite seq_S, map_app, big_app. cbn [map fold_right].
      rewrite (op_comm _ e0), op_e0. reflexivity.
  Qed.
  Theorem vec_reduce_is_scalar_reduce (f : nat -> A) s w p t :
    vec_reduce op e0 f s w p t = scalar_reduce op e0 f (s + w * p + t).
  Proof.
    unfold vec_reduce, scalar_reduce. rewrite !fold_left_big, !op_e0, lanes_hold_body.
    rewrite (seq_app (s + w * p) t 0), (seq_app s (w * p) 0), !map_app, !big_app.
    rewrite !op_assoc. f_equal. apply op_comm.
  Qed.
End ReduceProofs.

Lemma dotZ_multiple w idx strides : Forall (fun s => s mod w = 0) strides -> dotZ idx strides mod w = 0.
Proof.
  intros H. revert idx. induction H as [|s t Hs _ IH]; intros [|i idx]; cbn [dotZ]; [apply Zmod_0_l..|].
  rewrite Zplus_mod, Zmult_mod, Hs, IH, Z.mul_0_r. reflexivity.
Qed.
(* every row of an operand accepted by rows_ok starts at the alignment of the first row *)
Theorem rows_ok_row_alignment w strides base idx : 0 < w -> rows_ok w strides = true ->
  (base + dotZ idx (removelast strides)) mod w = base mod w /\ last strides 0 = 1.
Proof.
  intros Hw H. unfold rows_ok in H. apply andb_true_iff in H. destruct H as [Hl Ho].
  split; [|apply Z.eqb_eq; exact Hl].
  rewrite Zplus_mod, dotZ_multiple, Z.add_0_r, Zmod_mod; [reflexivity|].
  apply Forall_forall. intros s Hs. apply Z.eqb_eq. exact (proj1 (forallb_forall _ _) Ho s Hs).
Qed.
