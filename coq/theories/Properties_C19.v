(* C19 — each algorithm finds the box-constrained minimum of a convex quadratic.
   Model: Minim.v (Levenberg / Levenberg-Marquardt, hand-written; tie H: ./check C19 compares the extracted model with the
   implementation on every Levenberg run, and compares the point returned by all five algorithms with the exact
   solution of the box-constrained quadratic programme, computed over the rationals by enumeration of the active sets).
   _partial: what is proved is the soundness half: a SUCCESS of the Levenberg family is a first-order point of the
   box-constrained problem to the requested tolerance, for any cost function (so in particular for the convex
   quadratic, whose first-order point is unique), and completeness in the simplest case (C19_newton_one_step_partial:
   unbounded Levenberg-Marquardt on a quadratic reaches the stationary point in one iteration, over the reals).  That
   SUCCESS is reached in general, within a number of iterations proportional to the size, is a convergence-rate statement about damped Newton steps and inexact line searches in floating point; it
   is explored by the check (budget 20n+50 on random strictly convex quadratics of condition number below ~10, solution
   on faces and vertices, starts inside / on faces / outside, steps that meet several faces at once) and not proved.
   Of conjugate gradient and L-BFGS (MinimCG.v, MinimLBFGS.v) nothing is proved for C19; the check compares the point
   they return with the exact solution, as said above. *)
From Coq Require Import List Bool Reals Lia.
From Adept Require Import Scalar Minim MinimProofs RealOps MinimNewton.
Import ListNotations.
Local Open Scope Z_scope.

Section AnyProblem.
Context {T : Type} (O : Ops T).
Variable cost : list T -> T.
Variable grad : list T -> list T.
Variable hess : list T -> list (list T).
Variable solve : list (list T) -> list T -> list T.
Variable norm2 : list T -> T.
Variable isfinite : T -> bool.
Variable ofnat : nat -> T.
Hypothesis le_total : forall a b, oleb O a b = true \/ oleb O b a = true.
Hypothesis le_trans : forall a b c, oleb O a b = true -> oleb O b c = true -> oleb O a c = true.
Hypothesis lt_le : forall a b, oltb O a b = negb (oleb O b a).
Hypothesis grad_len : forall x, length (grad x) = length x.
Hypothesis solve_len : forall m g, length (solve m g) = length g.
Notation run_bounded := (lm_bounded O cost grad hess solve norm2 isfinite ofnat).

(* SUCCESS => the returned x is in the box; the gradient norm over the variables not flagged is within the tolerance; a
   variable flagged at its lower bound is at (or below, hence with feasibility: on) that bound and its gradient
   component is not negative; symmetrically at the upper bound: the first-order conditions *)
Theorem C19_success_is_first_order_point_partial : forall fo fi s additive lo hi x m1 inf, valid_bounds O lo hi x = true ->
  let r := run_bounded fo fi s additive lo hi x m1 inf in
  r_status r = MSuccess ->
  let g := grad (r_x r) in
  within O lo hi (r_x r)
  /\ oleb O (gnorm_free O norm2 (find (fun b => b =? 0) (r_bs r)) g) (thr s) = true
  /\ forall j, (j < length (r_x r))%nat ->
       (nth j (r_bs r) 0 = -1 -> oleb O (nth j (r_x r) (o0 O)) (nth j lo (o0 O)) = true /\ oltb O (nth j g (o0 O)) (o0 O) = false)
    /\ (nth j (r_bs r) 0 = 1 -> oleb O (nth j hi (o0 O)) (nth j (r_x r) (o0 O)) = true /\ oltb O (o0 O) (nth j g (o0 O)) = false).
Proof using le_total le_trans lt_le grad_len solve_len.
  intros fo fi s additive lo hi x m1 inf Hv r Hs g.
  assert (R : outer_post O cost grad norm2 s lo hi r) by (apply lm_bounded_spec; assumption). destruct R as (_ & R2 & _ & R4 & _).
  destruct (R4 Hs) as (S1 & S2 & [Pl P] & S4). fold g in S4. rewrite S4 in S1, S2.
  refine (conj R2 (conj S1 _)). intros j Hj.
  assert (Hr : releasable O (nth j (r_bs r) 0) (nth j g (o0 O)) = false) by (apply can_release_false_nth; [unfold g; rewrite grad_len; exact Pl|lia|exact S2]).
  unfold releasable in Hr. apply orb_false_iff in Hr. destruct Hr as [Hr1 Hr2].
  split; intros Hb; (split; [apply P; assumption|]).
  - rewrite Hb in Hr1. exact Hr1.
  - rewrite Hb in Hr2. exact Hr2.
Qed.
Theorem C19_iterations_bounded_partial : forall fo fi s additive lo hi x m1 inf, valid_bounds O lo hi x = true -> 0 < max_it s ->
  0 <= r_iter (run_bounded fo fi s additive lo hi x m1 inf) <= max_it s.
Proof. exact (bounded_iterations O cost grad hess solve norm2 isfinite ofnat le_total le_trans lt_le grad_len solve_len). Qed.
End AnyProblem.
Print Assumptions C19_success_is_first_order_point_partial.
Print Assumptions C19_iterations_bounded_partial.

(* completeness in the simplest case, over the reals: quadratic cost 0.5 x'Hx - b'x (any square H for which the solver is
   exact), exact gradient Hx - b and Hessian H, zero starting damping, no maximum step: the first trial point is the Newton
   point, its gradient is exactly zero, and - if that point lowers the cost, as it does for a convex quadratic away from its
   minimum (hypothesis) - unbounded Levenberg-Marquardt reports SUCCESS after one iteration, for every dimension n *)
Theorem C19_newton_one_step_partial : forall (H : list (list R)) (b : list R) (n : nat),
  length H = n -> (forall row, In row H -> length row = n) -> length b = n ->
  forall cost solve norm2 isfinite ofnat,
  (forall g, length g = n -> matvec H (solve H g) = g /\ length (solve H g) = n) -> norm2 (zeros n) = 0%R -> (forall v, isfinite v = true) ->
  forall (s : settings (T:=R)) x m1 fo fi,
  length x = n -> d_start s = 0%R -> ~ (0 < max_step s)%R -> (0 <= thr s)%R -> 1 < max_it s ->
  ~ (norm2 (qgrad H b x) <= thr s)%R ->
  (cost (map2 Rplus x (map Ropp (solve H (qgrad H b x)))) < cost x)%R ->
  let r := lm_unbounded RO cost (qgrad H b) (qhess H) solve norm2 isfinite ofnat (S (S fo)) (S fi) s false x m1 in
  r_status r = MSuccess /\ r_iter r = 1 /\ qgrad H b (r_x r) = zeros n /\ r_x r = map2 Rplus x (map Ropp (solve H (qgrad H b x))).
Proof. intros H b n Hrows _. exact (lm_newton_one_step H b n Hrows). Qed.
Print Assumptions C19_newton_one_step_partial.

(* a run of the model inside Coq (a test, not a proof): f(x,y) = (x-6)^2 + (y-1)^2 over the integers on [0,4] x [0,4] from
   the origin with the additive damping; the run ends with SUCCESS at (4,1): x flagged at its upper bound, where the
   gradient component is negative, y free with zero gradient *)
Example C19_example :
  let cost := fun x : list Z => (nth 0 x 0 - 6) * (nth 0 x 0 - 6) + (nth 1 x 0 - 1) * (nth 1 x 0 - 1) in
  let grad := fun x : list Z => [2 * (nth 0 x 0 - 6); 2 * (nth 1 x 0 - 1)] in
  let hess := fun _ : list Z => [[2; 0]; [0; 2]] in
  let solve := fun (m : list (list Z)) (g : list Z) => map (fun p => fst p / nth (snd p) (nth (snd p) m []) 1) (combine g (seq 0 (length g))) in
  let s := mkSettings 40 (-1) 0 (-1) 0 100 2 5 0 1 in
  let r := lm_bounded ZOps cost grad hess solve (fun g => fold_left Z.add (map Z.abs g) 0) (fun _ => true) Z.of_nat 50 12 s true [0; 0] [4; 4] [0; 0] (-1) 1000000 in
  r_status r = MSuccess /\ r_x r = [4; 1] /\ r_bs r = [1; 0].
Proof. vm_compute. repeat split. Qed.
