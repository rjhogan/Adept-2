(* The register and unregister functions of the gap-list allocator, re-assembled from the
   arithmetic, comparisons and field updates that tools/gen_gaplist.py reads from Stack.h / Stack.cpp on every
   run (Gen_Gaplist.v), and proved equal to the hand model GapList.v for EVERY state and argument.  The control
   skeleton (which list operation in which branch) is the template the translator matches the source against. *)
From Coq Require Import ZArith List Lia.
From Adept Require Import ListProofs GapList.
From AdeptGen Require Import Gen_Gaplist.
Import ListNotations.
Local Open Scope Z_scope.

Definition gen_max (cnd : Z -> Z -> bool) (val : Z -> Z -> Z) (i m : Z) : Z := if cnd i m then val i m else m.

(* Stack::register_gradient() *)
Definition gen_register1 (s : st) : st * Z :=
  match gaps s with
  | [] => let i := r1_top (ig s) in
          (mk i (gen_max r1_max_cond r1_max_val i (mg s)) (r1_count (nreg s)) [] (cur s), r1_top_ret i)
  | (a,b) :: rest =>
      let a' := r1_shrink a b in
      if r1_closed a' b
      then (mk (ig s) (mg s) (r1_count (nreg s)) rest (cur_after_erase 0 (cur s)), r1_gap_ret a b)
      else (mk (ig s) (mg s) (r1_count (nreg s)) ((a',b) :: rest) (cur s), r1_gap_ret a b)
  end.

(* Stack::do_register_gradients(n): the loop over the gap list *)
Inductive fit := Shrink | Fill.
Fixpoint gen_scan (n : Z) (k : nat) (l : list gap) : option (nat * gap * fit) :=
  match l with
  | [] => None
  | (a,b) :: t =>
      let len := rn_len a b in
      if rn_shrink_cond len n then Some (k, (a,b), Shrink)
      else if rn_fill_cond len n then Some (k, (a,b), Fill)
      else gen_scan n (S k) t
  end.
Definition gen_registerN (s : st) (n : Z) : st * Z :=
  match gen_scan n 0%nat (gaps s) with
  | Some (k, (a,b), Shrink) =>
      (mk (ig s) (mg s) (rn_count (nreg s) n) (set_nth k (rn_shrink a b n, b) (gaps s)) (cur s), rn_shrink_ret a b n)
  | Some (k, (a,b), Fill) =>
      (mk (ig s) (mg s) (rn_count (nreg s) n) (remove_nth k (gaps s)) (cur_after_erase k (cur s)), rn_fill_ret a b n)
  | None =>
      let i := rn_top (ig s) n in
      (mk i (gen_max rn_max_cond rn_max_val i (mg s)) (rn_count (nreg s) n) (gaps s) (cur s), rn_top_ret i n)
  end.

(* the top-of-stack branch of unregister_gradient / unregister_gradients; None = the not-at-top branch is taken *)
Definition gen_unregister_top (cnt : Z -> Z) (at_top : Z -> Z -> bool) (pop : Z -> Z)
           (reach : Z -> Z -> Z -> bool) (fall : Z -> Z -> Z -> Z) (s : st) (idx : Z) : option st :=
  if at_top idx (ig s) then
    let i := pop (ig s) in
    Some match rev (gaps s) with
         | (a,b) :: _ =>
             if reach i a b
             then mk (fall i a b) (mg s) (cnt (nreg s)) (removelast (gaps s))
                     (cur_after_erase (Nat.pred (length (gaps s))) (cur s))
             else mk i (mg s) (cnt (nreg s)) (gaps s) (cur s)
         | [] => mk i (mg s) (cnt (nreg s)) (gaps s) (cur s)
         end
  else None.
Definition gen_unregister1_top := gen_unregister_top u1_count u1_at_top u1_pop u1_reach u1_fall.
Definition gen_unregisterN_top (n : Z) :=
  gen_unregister_top (fun r => un_count r n) (fun i g => un_at_top i g n) (fun g => un_pop g n) un_reach un_fall.

Definition model_unregister_top (s : st) (idx n : Z) : option st :=
  if Z.eqb (idx + n) (ig s) then Some (unregisterN s idx n) else None.

Lemma gen_register1_eq : forall s, gen_register1 s = register1 s.
Proof.
  intros s. unfold gen_register1, register1, gen_max, r1_top, r1_top_ret, r1_shrink, r1_closed.
  destruct (gaps s) as [|[a b] rest].
  - replace (ig s + 1 - 1) with (ig s) by lia.
    (* the update of max_gradient_ is judged by what it assigns, not by the shape of its test:
       [i_gradient_ >= max_gradient_] in place of [>] assigns an equal value and still passes *)
    rewrite (if_either _ (mg s <? ig s + 1)) by (unfold r1_max_cond, r1_max_val; lia). reflexivity.
  - apply if_either. lia.
Qed.

(* the source tests "longer" and "equal" one after the other where the model tests "fits" first and "longer" afterwards *)
Lemma gen_scan_find_fit : forall n l k, gen_scan n k l =
  match find_fit n k l with
  | Some (k', (a,b)) => Some (k', (a,b), if n <? b + 1 - a then Shrink else Fill)
  | None => None
  end.
Proof.
  induction l as [|[a b] t IH]; intros k; cbn [gen_scan find_fit]; [reflexivity|]. rewrite IH.
  (* the outcomes of the source's two tests are facts for [lia], whichever way round they are written *)
  destruct (rn_shrink_cond (rn_len a b) n) eqn:Hlonger; [|destruct (rn_fill_cond (rn_len a b) n) eqn:Hequal];
    unfold rn_len, rn_shrink_cond, rn_fill_cond in *.
  - assert (n <=? b + 1 - a = true /\ n <? b + 1 - a = true) as [-> ->] by lia. reflexivity.
  - assert (n <=? b + 1 - a = true /\ n <? b + 1 - a = false) as [-> ->] by lia. reflexivity.
  - assert (n <=? b + 1 - a = false) as -> by lia. reflexivity.
Qed.

Lemma gen_registerN_eq : forall s n, gen_registerN s n = registerN s n.
Proof.
  intros s n. unfold gen_registerN, registerN. rewrite gen_scan_find_fit.
  destruct (find_fit n 0%nat (gaps s)) as [[k [a b]]|].
  - destruct (n <? b + 1 - a); reflexivity.
  - unfold gen_max, rn_top, rn_top_ret.
    replace (ig s + n - n) with (ig s) by lia.
    rewrite (if_either _ (mg s <? ig s + n)) by (unfold rn_max_cond, rn_max_val; lia). reflexivity.
Qed.

Lemma gen_unregisterN_top_eq : forall s idx n, gen_unregisterN_top n s idx = model_unregister_top s idx n.
Proof.
  intros s idx n. unfold gen_unregisterN_top, gen_unregister_top, model_unregister_top, unregisterN, un_at_top.
  destruct (Z.eqb (idx + n) (ig s)); reflexivity.
Qed.

(* The not-at-top path: unregister_gradient_not_top(idx) and the else branch of unregister_gradients(idx,n). *)
Record ntf := {
  cb_c : Z -> Z -> Z -> bool; cb_u : Z -> Z -> Z; ct_c : Z -> Z -> Z -> bool; ct_u : Z -> Z -> Z;
  s_le : Z -> Z -> Z -> bool; sb_c : Z -> Z -> Z -> bool; sb_u : Z -> Z -> Z; st_c : Z -> Z -> Z -> bool; st_u : Z -> Z -> Z;
  ng_a : Z -> Z; ng_b : Z -> Z; pg_a : Z -> Z; pg_b : Z -> Z;
  mb_c : Z -> Z -> Z -> Z -> bool; mb_u : Z -> Z -> Z -> Z -> Z; mt_c : Z -> Z -> Z -> Z -> bool; mt_u : Z -> Z -> Z -> Z -> Z }.

Definition F1 : ntf := {|
  cb_c := x1_cb_c; cb_u := x1_cb_u; ct_c := x1_ct_c; ct_u := x1_ct_u; s_le := x1_s_le; sb_c := x1_sb_c; sb_u := x1_sb_u;
  st_c := x1_st_c; st_u := x1_st_u; ng_a := x1_ng_a; ng_b := x1_ng_b; pg_a := x1_pg_a; pg_b := x1_pg_b;
  mb_c := x1_mb_c; mb_u := x1_mb_u; mt_c := x1_mt_c; mt_u := x1_mt_u |}.
Definition FN (n : Z) : ntf := {|
  cb_c := fun i a b => xn_cb_c i a b n; cb_u := fun a b => xn_cb_u a b n; ct_c := fun i a b => xn_ct_c i a b n;
  ct_u := fun a b => xn_ct_u a b n; s_le := fun i a b => xn_s_le i a b n; sb_c := fun i a b => xn_sb_c i a b n;
  sb_u := fun a b => xn_sb_u a b n; st_c := fun i a b => xn_st_c i a b n; st_u := fun a b => xn_st_u a b n;
  ng_a := fun i => xn_ng_a i n; ng_b := fun i => xn_ng_b i n; pg_a := fun i => xn_pg_a i n; pg_b := fun i => xn_pg_b i n;
  mb_c := xn_mb_c; mb_u := xn_mb_u; mt_c := xn_mt_c; mt_u := xn_mt_u |}.

Section NotTop.
Variable F : ntf.

Fixpoint gen_search (idx : Z) (k : nat) (l : list gap) : option (nat * status) :=
  match l with
  | [] => None
  | (a,b) :: t =>
      if s_le F idx a b
      then Some (k, if sb_c F idx a b then AtBase else if st_c F idx a b then AtTop else NewGap)
      else gen_search idx (S k) t
  end.

Definition gen_place (s : st) (idx : Z) : nat * status * list gap :=
  let try_cur :=
    match cur s with
    | Some k => match nth_error (gaps s) k with
                | Some (a,b) =>
                    if cb_c F idx a b then Some (k, AtBase, set_nth k (cb_u F a b, b) (gaps s))
                    else if ct_c F idx a b then Some (k, AtTop, set_nth k (a, ct_u F a b) (gaps s))
                    else None
                | None => None end
    | None => None end in
  match try_cur with
  | Some r => r
  | None =>
      match gen_search idx 0%nat (gaps s) with
      | Some (k, AtBase) => match nth_error (gaps s) k with
                            | Some (a,b) => (k, AtBase, set_nth k (sb_u F a b, b) (gaps s))
                            | None => (k, NotFound, gaps s) end
      | Some (k, AtTop) => match nth_error (gaps s) k with
                           | Some (a,b) => (k, AtTop, set_nth k (a, st_u F a b) (gaps s))
                           | None => (k, NotFound, gaps s) end
      | Some (k, _) => (k, NewGap, insert_nth k (ng_a F idx, ng_b F idx) (gaps s))
      | None => (length (gaps s), NewGap, gaps s ++ [(pg_a F idx, pg_b F idx)])
      end
  end.

Definition gen_merge (k : nat) (stt : status) (g : list gap) : list gap * nat :=
  match stt with
  | AtBase =>
      match k with O => (g,k)
      | S k' => match nth_error g k', nth_error g k with
                | Some (pa,pb), Some (a,b) =>
                    if mb_c F pa pb a b then (remove_nth k' (set_nth k (mb_u F pa pb a b, b) g), k') else (g,k)
                | _,_ => (g,k) end
      end
  | AtTop =>
      match nth_error g k, nth_error g (S k) with
      | Some (a,b), Some (na,nb) =>
          if mt_c F na nb a b then (remove_nth (S k) (set_nth k (a, mt_u F na nb a b) g), k) else (g,k)
      | _,_ => (g,k) end
  | _ => (g,k)
  end.

Definition gen_unregister_rest (s : st) (idx cnt : Z) : st :=
  let '(k, stt, g) := gen_place s idx in
  let '(g', k') := gen_merge k stt g in
  mk (ig s) (mg s) cnt g' (Some k').

End NotTop.

(* With the holes of unregister_gradients the skeleton is the model's not-at-top path, hole by hole the same expression;
   those of unregister_gradient_not_top are the same with n = 1, except that the new gap ends at idx where the
   general form has idx + 1 - 1. *)
Lemma gen_search_FN : forall n idx l k, gen_search (FN n) idx k l = search idx n k l.
Proof. induction l as [|[a b] t IH]; intros k; cbn [gen_search search]; [|rewrite IH]; reflexivity. Qed.
Lemma gen_unregister_rest_FN : forall n s idx,
  Z.eqb (idx + n) (ig s) = false -> gen_unregister_rest (FN n) s idx (nreg s - n) = unregisterN s idx n.
Proof. intros n s idx Hne. unfold gen_unregister_rest, gen_place, unregisterN, place. rewrite Hne, gen_search_FN. reflexivity. Qed.
Lemma gen_unregister_rest_F1 : forall s idx c, gen_unregister_rest F1 s idx c = gen_unregister_rest (FN 1) s idx c.
Proof.
  intros s idx c. unfold gen_unregister_rest, gen_place.
  change (ng_b (FN 1) idx) with (idx + 1 - 1). change (pg_b (FN 1) idx) with (idx + 1 - 1).
  replace (idx + 1 - 1) with idx by lia. reflexivity.
Qed.

Definition gen_unregister1 (s : st) (idx : Z) : st :=
  match gen_unregister1_top s idx with
  | Some r => r
  | None => gen_unregister_rest F1 s idx (u1_count (nreg s))
  end.
Definition gen_unregisterN (s : st) (idx n : Z) : st :=
  match gen_unregisterN_top n s idx with
  | Some r => r
  | None => gen_unregister_rest (FN n) s idx (un_count (nreg s) n)
  end.

Lemma gen_unregisterN_eq : forall s idx n, gen_unregisterN s idx n = unregisterN s idx n.
Proof.
  intros s idx n. unfold gen_unregisterN. rewrite gen_unregisterN_top_eq. unfold model_unregister_top.
  destruct (Z.eqb (idx + n) (ig s)) eqn:E; [reflexivity|].
  apply gen_unregister_rest_FN, E.
Qed.
Lemma gen_unregister1_eq : forall s idx, gen_unregister1 s idx = unregisterN s idx 1.
Proof.
  intros s idx. unfold gen_unregister1. rewrite gen_unregister_rest_F1. exact (gen_unregisterN_eq s idx 1).
Qed.

Definition gen_step (sL : st * blocks) (o : op) : st * blocks :=
  let '(s, L) := sL in
  match o with
  | OReg1 => let '(s', r) := gen_register1 s in (s', (r, 1) :: L)
  | ORegN n => if Z.leb 1 n then let '(s', r) := gen_registerN s n in (s', (r, n) :: L) else sL
  | OUnreg k => match nth_error L k with
                | Some (idx, n) => (if Z.eqb n 1 then gen_unregister1 s idx else gen_unregisterN s idx n, remove_nth k L)
                | None => sL end
  | ONewRec => (new_recording s, L)
  end.
Definition gen_run (ops : list op) : st * blocks := fold_left gen_step ops (init, []).

Lemma gen_step_eq : forall sL o, gen_step sL o = step sL o.
Proof.
  intros [s L] o. destruct o as [|n|k|]; cbn [gen_step step].
  - rewrite gen_register1_eq. reflexivity.
  - rewrite gen_registerN_eq. reflexivity.
  - destruct (nth_error L k) as [[idx n]|]; [|reflexivity].
    destruct (Z.eqb_spec n 1) as [->|_]; [rewrite gen_unregister1_eq|rewrite gen_unregisterN_eq]; reflexivity.
  - reflexivity.
Qed.
Lemma gen_run_eq : forall ops, gen_run ops = run ops.
Proof.
  intros ops. unfold gen_run, run. generalize (init, @nil (Z * Z)).
  induction ops as [|o ops IH]; intros sL; cbn [fold_left]; [reflexivity|].
  rewrite gen_step_eq. apply IH.
Qed.
