(* C06 — views address exactly the elements their index expressions denote.
   Model View.v (Array.h section 4, RangeIndex.h): a view is (base, extents, strides); each
   view-forming member function is the function on triples the C++ computes.  The theorems relate
   it to the *denotation* den_ops: the map from an index of the derived view to the parent index. *)
From Coq Require Import ZArith List.
From Adept Require Import View ViewProofs ViewGen.
Import ListNotations.
Local Open Scope Z_scope.

(* slicing with any mix of scalar indices, ranges, strides (either sign) and `end` arithmetic:
   the element at index j of the slice is the parent element at the denoted index - no hypothesis
   on the values of the arguments (pure affine identity) *)
Theorem C06_slice_address : forall v l j, wfv v -> length l = length (dims v) ->
  addr (slice v l) j = addr v (den_slice l (dims v) j).
Proof. intros. apply slice_spec. Qed.
Print Assumptions C06_slice_address.

(* rank = number of range arguments *)
Theorem C06_slice_rank : forall l ds, length l = length ds ->
  length (slice_dims l ds) = length (filter (fun x => match x with IR _ _ _ => true | _ => false end) l).
Proof. induction l as [|x l IH]; intros [|d ds] H; try discriminate; [reflexivity|].
  injection H as H. destruct x; cbn [slice_dims filter length]; rewrite IH by exact H; reflexivity. Qed.
Print Assumptions C06_slice_rank.

(* the extent (end - begin + stride)/stride, with C++ truncating division, is the number of terms of
   the arithmetic progression begin, begin+stride, ... that do not pass end - for both stride signs *)
Theorem C06_extent_is_count : forall b e s k, 0 <= k ->
  (0 < s -> b <= e -> (k < Z.quot (e + s - b) s <-> b + s * k <= e)) /\
  (s < 0 -> e <= b -> (k < Z.quot (e + s - b) s <-> e <= b + s * k)).
Proof. intros b e s k Hk. split; [apply ap_count_pos|apply ap_count_neg]. Qed.
Print Assumptions C06_extent_is_count.

(* every finite composition of slicing, operator[], T, permute, diag_vector, submatrix_on_diagonal,
   reshape and soft_link with admissible arguments: address identity, the denoted parent index is
   inside the parent's extents, the result is a well-formed view *)
Theorem C06_compose : forall os v j, wfv v -> adm_ops v os = true -> inb (dims (apply_ops v os)) j ->
  addr (apply_ops v os) j = addr v (den_ops v os j) /\ inb (dims v) (den_ops v os j) /\ wfv (apply_ops v os).
Proof. intros os v j Hw Ha Hj. destruct (ops_embeds os v Hw Ha) as [W A B _]. auto. Qed.
Print Assumptions C06_compose.

(* distinct indices of the derived view denote distinct parent indices *)
Theorem C06_distinct : forall os v j j', wfv v -> adm_ops v os = true ->
  inb (dims (apply_ops v os)) j -> inb (dims (apply_ops v os)) j' -> den_ops v os j = den_ops v os j' -> j = j'.
Proof. intros os v j j' Hw Ha Hj. apply (emb_inj _ _ _ (ops_embeds os v Hw Ha) j Hj). Qed.
Print Assumptions C06_distinct.

(* for a packed parent of extents ds: every element of every admissible derived view is a cell of the
   parent (nothing outside its memory), namely the cell numbered by the denoted index, and two
   different elements of the view are two different cells: reads see, and writes reach, exactly those *)
Theorem C06_parent_cells : forall ds os j j', adm_ops (parent ds) os = true ->
  inb (dims (apply_ops (parent ds) os)) j -> inb (dims (apply_ops (parent ds) os)) j' ->
  let a := addr (apply_ops (parent ds) os) j in
  0 <= a < fold_right Z.mul 1 ds /\ a = lin_packed ds (den_ops (parent ds) os j) /\
  (addr (apply_ops (parent ds) os) j' = a -> j' = j).
Proof.
  intros ds os j j' Ha Hj Hj' a. destruct (ops_embeds os _ (parent_wfv ds) Ha) as [_ A B Inj].
  unfold a. rewrite !A, !addr_parent by assumption. split; [apply lin_packed_bound; auto|]. split; [reflexivity|].
  intros E. apply (Inj j' Hj' j Hj). apply (lin_packed_inj ds); auto.
Qed.
Print Assumptions C06_parent_cells.

(* ADEPT_BOUNDS_CHECKING: slicing raises index_out_of_bounds exactly when some scalar index or range
   end-point lies outside 0..n-1, and otherwise returns the unchecked result *)
Theorem C06_bounds_checked : forall v l, length l = length (dims v) ->
  (slice_checked v l = None <->
   exists k x d, nth_error l k = Some x /\ nth_error (dims v) k = Some d /\ bad_ix d x) /\
  (forall v', slice_checked v l = Some v' -> v' = slice v l).
Proof.
  intros v l _. unfold slice_checked. rewrite <- (chk_slice_false l (dims v)).
  destruct (chk_slice l (dims v)); split; try split; congruence.
Qed.
Print Assumptions C06_bounds_checked.

(* non-vacuity: reshape 12 -> 3x4, transpose, take row end-1 and columns 2,1,0 (negative stride) *)
Example C06_example :
  let os := [OReshape [3;4]; OTranspose; OSlice [IS (IEnd (-1)); IR (IAbs 2) (IAbs 0) (-1)]] in
  adm_ops (parent [12]) os = true /\ dims (apply_ops (parent [12]) os) = [3] /\
  map (fun j => addr (apply_ops (parent [12]) os) [j]) [0;1;2] = [10; 6; 2].
Proof. vm_compute. repeat split. Qed.

(* Tie G.  Array::operator()(i0,...,ik) as read from Array.h on every run - the scalar and the range version of
   update_index (offset; new extent with truncating division; new stride), applied to the arguments in order from
   ibegin = 0 as each of the multi-argument overloads does, and the rank-1 ranged operator - is the model's [slice], for
   every view and every index list; hence the address identity holds for the view the code builds. *)
Theorem C06_generated_slice : forall v l,
  gen_slice v l = slice v l /\
  (forall j, wfv v -> length l = length (dims v) -> addr (gen_slice v l) j = addr v (den_slice l (dims v) j)) /\
  (forall b0 d s bb ee st, gen_slice1 b0 d s bb ee st = slice (mkView b0 [d] [s]) [IR bb ee st]).
Proof.
  intros v l. split; [apply gen_slice_eq|]. split; [|reflexivity].
  intros j. rewrite gen_slice_eq. apply C06_slice_address.
Qed.
Print Assumptions C06_generated_slice.

(* diag_vector(offdiag) (both signs of offdiag: offset, extent as a minimum, stride) and submatrix_on_diagonal(ibegin, iend)
   (offset, the two extents, strides kept) as read from Array.h are the model's, for every view *)
Theorem C06_generated_diag_and_submatrix : forall v k ib ie,
  gen_diag_vector v k = diag_vector v k /\ gen_submatrix_on_diagonal v ib ie = submatrix_on_diagonal v ib ie.
Proof. split; [apply gen_diag_vector_eq|reflexivity]. Qed.
Print Assumptions C06_generated_diag_and_submatrix.

(* T() of a matrix (link, then the straight-line swap of in_place_transpose run symbolically) and reshape(dims) of a
   vector (stride of the last new dimension, recurrence for the others) as read from Array.h are the model's *)
Theorem C06_generated_transpose_and_reshape : forall v nd,
  gen_transpose v = transpose v /\ gen_reshape v nd = reshape v nd.
Proof. split; reflexivity. Qed.
Print Assumptions C06_generated_transpose_and_reshape.

(* operator[](i) on rank > 1 (const and non-const agree): offset along dimension 0, the other dimensions moved down *)
Theorem C06_generated_leading_index : forall v i, gen_index0 v i = index0 v i.
Proof. reflexivity. Qed.
Print Assumptions C06_generated_leading_index.

(* non-vacuity: A(end-1, stride(end,0,-2)) of a 3 x 5 row-major matrix at offset 100 *)
Example C06_example_generated_slice :
  gen_slice (mkView 100 [3;5] [5;1]) [IS (IEnd (-1)); IR (IEnd 0) (IAbs 0) (-2)] = mkView 109 [3] [-2] /\
  gen_diag_vector (mkView 7 [4;4] [4;1]) (-1) = mkView 11 [3] [5] /\
  gen_submatrix_on_diagonal (mkView 7 [4;4] [4;1]) 1 2 = mkView 12 [2;2] [4;1] /\
  gen_transpose (mkView 7 [2;3] [3;1]) = mkView 7 [3;2] [1;3] /\
  gen_reshape (mkView 5 [12] [-2]) [2;3;2] = mkView 5 [2;3;2] [-12;-4;-2] /\
  gen_index0 (mkView 7 [2;3] [3;1]) (IEnd 0) = mkView 10 [3] [1].
Proof. vm_compute. repeat split. Qed.
