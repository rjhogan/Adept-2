(* C20 — interpolation reproduces the piecewise-linear / nearest interpolant.
   Model Interp.v (include/adept/interp.h), theorems over the real numbers, proved here from the lemmas of InterpProofs.v
   (bracket, inside and at-knot are instances of bisect_bracket, interp1_inside, interp1_at_knot).
   [chord t ya yb] is the row  ya + t (yb - ya).
   Tie G for interp2d / interp3d: interp_get_indices_weights is TRANSLATED from interp.h on every run (Gen_Interp.v: ordering
   test, in-range tests, search loops, weights of the three cases and both extrapolation policies, as expression trees) and
   proved equal to the hand model's index_weight for every scheme, policy, coordinate vector with at least two knots and
   query, over ANY scalar type (interp2d / interp3d reject shorter vectors with size_mismatch). *)
From Coq Require Import Rbase Lra Lia.
From Adept Require Import Scalar Interp InterpProofs InterpDefs.
From AdeptGen Require Import Gen_Interp.
Local Open Scope R_scope.

(* the binary search ends on two consecutive knots that bracket the query (both orders) *)
Theorem C20_bracket_increasing : forall x q, increasing x -> forall fuel jmin jmax,
  (jmin < jmax < length x)%nat -> (jmax - jmin <= fuel)%nat -> xs ROps x jmin < q <= xs ROps x jmax ->
  let '(a, b) := bisect ROps fuel true x q jmin jmax in
  b = S a /\ (jmin <= a)%nat /\ (b <= jmax)%nat /\ xs ROps x a < q <= xs ROps x b.
Proof. intros x q _ fuel jmin jmax. exact (bisect_bracket true x q jmin jmax fuel jmin jmax (le_n _) (le_n _)). Qed.
Print Assumptions C20_bracket_increasing.
Theorem C20_bracket_decreasing : forall x q, decreasing x -> forall fuel jmin jmax,
  (jmin < jmax < length x)%nat -> (jmax - jmin <= fuel)%nat -> xs ROps x jmax <= q < xs ROps x jmin ->
  let '(a, b) := bisect ROps fuel false x q jmin jmax in
  b = S a /\ (jmin <= a)%nat /\ (b <= jmax)%nat /\ xs ROps x b <= q < xs ROps x a.
Proof. intros x q _ fuel jmin jmax. exact (bisect_bracket false x q jmin jmax fuel jmin jmax (le_n _) (le_n _)). Qed.
Print Assumptions C20_bracket_decreasing.

(* inside the range: the chord of the bracketing interval, i.e. the piecewise-linear interpolant; any
   number of trailing dimensions (a row per knot) *)
Theorem C20_linear_inside : forall rc p x y c q, increasing x -> (2 <= length x)%nat ->
  xs ROps x 0 < q < xs ROps x (length x - 1) ->
  exists a, (S a < length x)%nat /\ xs ROps x a < q <= xs ROps x (S a) /\
    interp1_query ROps rc Linear p x y c q = chord ((q - xs ROps x a) / (xs ROps x (S a) - xs ROps x a)) (ys y a) (ys y (S a)).
Proof. exact (interp1_inside true). Qed.
Print Assumptions C20_linear_inside.
Theorem C20_linear_inside_decreasing : forall rc p x y c q, decreasing x -> (2 <= length x)%nat ->
  xs ROps x (length x - 1) < q < xs ROps x 0 ->
  exists a, (S a < length x)%nat /\ xs ROps x (S a) <= q < xs ROps x a /\
    interp1_query ROps rc Linear p x y c q = chord ((q - xs ROps x a) / (xs ROps x (S a) - xs ROps x a)) (ys y a) (ys y (S a)).
Proof. exact (interp1_inside false). Qed.
Print Assumptions C20_linear_inside_decreasing.

(* at every knot - first, interior, last - and for every extrapolation policy: the data value itself *)
Theorem C20_at_knots : forall rc p x y c k, increasing x -> (2 <= length x)%nat -> length x = length y -> rect y ->
  (k < length x)%nat -> interp1_query ROps rc Linear p x y c (xs ROps x k) = ys y k.
Proof. exact (interp1_at_knot true). Qed.
Print Assumptions C20_at_knots.

(* outside the range: linear continuation / clamped end value / the constant *)
Theorem C20_extrapolate_left : forall rc p x y c q, increasing x -> (2 <= length x)%nat -> q < xs ROps x 0 ->
  interp1_query ROps rc Linear p x y c q =
  match p with
  | PLinear => chord ((q - xs ROps x 0) / (xs ROps x 1 - xs ROps x 0)) (ys y 0) (ys y 1)
  | PClamp => ys y 0
  | PConstant => const_row y c
  end.
Proof.
  intros rc p x y c q Hinc Hn Hq. rewrite (interp1_low true) by (assumption || (cbn; lra)).
  destruct (oeqb_spec q (X x 0)); [lra|reflexivity].
Qed.
Print Assumptions C20_extrapolate_left.
Theorem C20_extrapolate_right : forall rc p x y c q, increasing x -> (2 <= length x)%nat -> xs ROps x (length x - 1) < q ->
  interp1_query ROps rc Linear p x y c q =
  match p with
  | PLinear => chord ((q - xs ROps x (length x - 2)) / (xs ROps x (length x - 1) - xs ROps x (length x - 2)))
                     (ys y (length x - 2)) (ys y (length x - 1))
  | PClamp => ys y (length x - 1)
  | PConstant => const_row y c
  end.
Proof.
  intros rc p x y c q Hinc Hn Hq. rewrite (interp1_high true) by (assumption || (cbn; lra)).
  destruct (oeqb_spec q (X x (length x - 1))); [lra|reflexivity].
Qed.
Print Assumptions C20_extrapolate_right.

(* interp2d / interp3d: the index/weight pair of each dimension brackets the query, the weight lies in
   [0,1], and  w*ya + (1-w)*yb  is the same chord, so the result is the tensor-product interpolant *)
Theorem C20_weights : forall p x q, increasing x -> (2 <= length x)%nat -> xs ROps x 0 <= q <= xs ROps x (length x - 1) ->
  let '(j, w, v) := index_weight ROps Linear p x q in
  v = true /\ (j + 2 <= length x)%nat /\ xs ROps x j <= q <= xs ROps x (S j) /\ 0 <= w <= 1 /\
  w = (xs ROps x (S j) - q) / (xs ROps x (S j) - xs ROps x j).
Proof.
  intros p x q Hinc Hn Hq. unfold index_weight. rewrite (up_flag true x Hinc Hn).
  destruct (oleb_spec (X x 0) q); [|lra]. destruct (oleb_spec q (X x (length x - 1))); [|lra]. cbn [andb].
  pose proof (search_up_spec x q (length x) 0%nat ltac:(lia) ltac:(lia) ltac:(lra)) as (H2 & H3).
  set (jr := search_up ROps (length x) x q 0) in *.
  assert (X x jr < X x (S jr)) by (apply Hinc; lia).
  cbn [odiv osub ROps]. refine (conj eq_refl (conj H2 (conj H3 (conj _ eq_refl)))). split.
  - apply Rmult_le_pos; [lra|]. left. apply Rinv_0_lt_compat. lra.
  - apply (Rmult_le_reg_r (X x (S jr) - X x jr)); [lra|]. unfold Rdiv. rewrite Rmult_assoc, Rinv_l by lra. lra.
Qed.
Print Assumptions C20_weights.
Theorem C20_weight_is_chord : forall (xa xb q : R) (ya yb : row (T:=R)), xa <> xb ->
  row_add ROps (row_scale ROps ((xb - q) / (xb - xa)) ya) (row_scale ROps (one_minus ROps ((xb - q) / (xb - xa))) yb)
  = chord ((q - xa) / (xb - xa)) ya yb.
Proof.
  intros xa xb q ya yb Hne. unfold row_add, row_scale, one_minus, chord. revert yb. induction ya as [|u ya IH]; intros [|v yb]; simpl; try reflexivity.
  f_equal; [field; lra|apply IH].
Qed.
Print Assumptions C20_weight_is_chord.

(* option words: scheme in the upper bits, policy in the low four; NEAREST+LINEAR and unknown codes rejected *)
Example C20_options :
  decode 0 = Ok (Linear, PLinear) /\ decode 16 = Ok (Nearest, PClamp) /\ decode 17 = ArrayException /\
  decode 3 = Ok (Linear, PConstant) /\ decode 4 = ArrayException /\ decode 32 = ArrayException /\ decode 18 = Ok (Nearest, PClamp).
Proof. vm_compute. repeat split. Qed.

(* tie G: the translated interp_get_indices_weights is the model's [index_weight] (which interp2d_query / interp3d_query use) *)
Theorem C20_generated_indices_weights : forall (T : Type) (Op : Ops T) s p (x : list T) q, (2 <= length x)%nat ->
  iw_eval Op iw_table s p x q = index_weight Op s p x q.
Proof.
  intros T Op s p x q Hn.
  assert (E1 : S (length x - 2) = (length x - 1)%nat) by lia.
  (* running the table gives the decision tree of [index_weight] itself, up to computation and E1 *)
  unfold index_weight.
  rewrite E1. reflexivity.
Qed.
Print Assumptions C20_generated_indices_weights.
