(* C03 (reductions): the statements reduce_active records for sum, mean, product, maxval, minval and norm2 of an
   active array expression act on every tangent seed like the scalar loop the reduction denotes (dual-number
   evaluation), the value is that of the loop, every other gradient entry is left alone, and the operations pushed
   inside the loop fit the reservation made before it.  Over any commutative ring with x/y = x*(1/y). *)
From Coq Require Import ZArith List Bool Lia Ring.
From Adept Require Import Scalar Expr ExprProofs Tape TapeAdjoint Program ProgramProofs ReduceDefs Reduce.
From AdeptGen Require Import Gen_Reduce.
Import ListNotations.

Section ReduceProofs.
Context {T : Type} (F : FOps T).
Variables (minf pinf : T) (ofnat : nat -> T).
Let O := fbase F.
Hypothesis Rth : ring_theory (o0 O) (o1 O) (oadd O) (omul O) (osub O) (oneg O) (@eq T).
Hypothesis Hdiv : forall x y, odiv O x y = omul O x (odiv O (o1 O) y).
Hypothesis Hlit1 : flit F 1 1 = o1 O.
Add Ring TringR : Rth.
Notation "x + y" := (oadd O x y). Notation "x * y" := (omul O x y).

Lemma vgw_correct (e : expr (T:=T)) mk u :
  fst (vgw F e mk) = sem F e /\ dot_ops F (snd (vgw F e mk)) u = wval F (mk (sem F e)) * tangent F u e.
Proof.
  unfold vgw. pose proof (store_then_gradient F Rth Hdiv Hlit1 e mk u) as H.
  destruct (value_store F (arrays_of e) e 0 0 (fun _ => o0 (fbase F))) as [v scr]. exact H.
Qed.
Lemma vgw_pair (e : expr (T:=T)) mk : vgw F e mk = (sem F e, snd (vgw F e mk)).
Proof. rewrite <- (proj1 (vgw_correct e mk (fun _ => o0 O))). apply surjective_pairing. Qed.
Lemma vgw_indices (e : expr (T:=T)) mk : Forall (fun mi => In (snd mi) (gis e)) (snd (vgw F e mk)).
Proof.
  unfold vgw. destruct (value_store F (arrays_of e) e 0 0 (fun _ => o0 (fbase F))) as [v scr].
  apply calc_gradient_indices. apply arrs_ok_top.
Qed.

Lemma dot_ops_ext ops u u' : Forall (fun mi : T * Z => u (snd mi) = u' (snd mi)) ops -> dot_ops F ops u = dot_ops F ops u'.
Proof.
  unfold dot_ops. induction 1 as [|mi ops Hm _ IH]; cbn [fold_right]; [|rewrite IH, Hm]; reflexivity.
Qed.

Lemma tangent_ext (e : expr (T:=T)) u u' : Forall (fun g => u g = u' g) (gis e) -> tangent F u e = tangent F u' e.
Proof.
  induction e as [gi v|act gi v|v|f a IH|k l IHl r IHr]; cbn [tangent gis]; intros H.
  - exact (Forall_inv H).
  - destruct act; [exact (Forall_inv H)|reflexivity].
  - reflexivity.
  - rewrite (IH H). reflexivity.
  - apply Forall_app in H. destruct H as [Hl Hr]. rewrite (IHl Hl), (IHr Hr). reflexivity.
Qed.

Section Run.
Variables (t : nat) (u0 : nat -> T).
Let uz := fun z : Z => u0 (Z.to_nat z).
(* the total is a fresh variable: no element expression reads its gradient index *)
Definition fresh (e : expr (T:=T)) : Prop := Forall (fun g => Z.to_nat g <> t) (gis e).
Definition agree (g : nat -> T) : Prop := forall i, i <> t -> g i = u0 i.

Lemma elem_ops (e : expr (T:=T)) mk g : fresh e -> agree g ->
  rhs_val O (conv_ops (snd (vgw F e mk))) g = wval F (mk (sem F e)) * tangent F uz e.
Proof.
  intros Hf Hg. rewrite (rhs_val_conv F Rth).
  destruct (vgw_correct e mk (fun z => g (Z.to_nat z))) as [_ Hd]. rewrite Hd. f_equal.
  apply tangent_ext. eapply Forall_impl; [|exact Hf]. intros gi Hn. apply Hg, Hn.
Qed.
Definition xs_of (es : list (expr (T:=T))) : list (T * T) := map (fun e => (sem F e, tangent F uz e)) es.

(* which accumulations leave their operations pending (sum, mean, norm2) and which close a statement per element
   (product, maxval, minval); each kind has its invariant *)
Definition pends (a : racc) : bool := match a with AccAdd | AccSqSpecial2 _ _ => true | _ => false end.
Definition inv_pending (st : rstate (T:=T)) (s : T * T) : Prop :=
  r_total st = fst s /\ agree (fwd_sweep O (r_tape st) u0) /\ rhs_val O (r_pending st) (fwd_sweep O (r_tape st) u0) = snd s.
Definition inv_closed (st : rstate (T:=T)) (s : T * T) : Prop :=
  r_total st = fst s /\ r_pending st = [] /\ forall i, fwd_sweep O (r_tape st) u0 i = upd u0 t (snd s) i.

Lemma agree_of g d : (forall i, g i = upd u0 t d i) -> agree g.
Proof. intros H i. rewrite H. apply upd_other. Qed.
Lemma at_t g d : (forall i, g i = upd u0 t d i) -> g t = d.
Proof. intros H. rewrite H. apply upd_same. Qed.

(* push_lhs after pushing [extra] makes one statement of everything pending: it leaves the closed form *)
Lemma close_closed st v extra s : agree (fwd_sweep O (r_tape st) u0) -> v = fst s ->
  rhs_val O (r_pending st ++ extra) (fwd_sweep O (r_tape st) u0) = snd s -> inv_closed (close t st v extra) s.
Proof.
  intros Hsw Hv Hd. split; [exact Hv|]. split; [reflexivity|].
  intros i. unfold close. cbn [r_tape]. rewrite fwd_sweep_snoc, Hd. unfold upd.
  destruct (Nat.eqb_spec i t) as [|Hn]; [reflexivity|]. apply Hsw, Hn.
Qed.
(* total = e: what was pending joins the gradient of e, read off the vector swept so far *)
Lemma assign_closed st e s : agree (fwd_sweep O (r_tape st) u0) -> sem F e = fst s ->
  rhs_val O (r_pending st) (fwd_sweep O (r_tape st) u0) + tangent F (fun z => fwd_sweep O (r_tape st) u0 (Z.to_nat z)) e = snd s ->
  inv_closed (assign_expr F t st e) s.
Proof.
  intros Hsw Hv Hd. unfold assign_expr. rewrite (recorded_pair F Rth Hdiv Hlit1).
  apply close_closed; [exact Hsw|exact Hv|rewrite (rhs_val_app O Rth), (recorded_rhs F Rth Hdiv Hlit1); exact Hd].
Qed.

(* on a closed state the element's operations, once pushed, are all that is pending *)
Lemma closed_elem st s e mk : fresh e -> inv_closed st s ->
  rhs_val O (r_pending st ++ conv_ops (snd (vgw F e mk))) (fwd_sweep O (r_tape st) u0) = wval F (mk (sem F e)) * tangent F uz e.
Proof.
  intros Hf (_ & Hp & Hsw). rewrite Hp. apply elem_ops; [exact Hf|exact (agree_of _ _ Hsw)].
Qed.
Definition acc_inv (a : racc) : rstate (T:=T) -> T * T -> Prop := if pends a then inv_pending else inv_closed.
Lemma acc_inv_step a st s e : fresh e -> acc_inv a st s -> acc_inv a (racc_step F t a st e) (racc_spec F a s (sem F e, tangent F uz e)).
Proof.
  intros Hf Hi. unfold acc_inv in *. destruct a as [| |c|n d]; cbn [pends racc_step racc_spec fst snd] in *.
  (* total += x without multiplier, total += x*x with multiplier c*x (c the literal 2.0 of the source):
     the element's operations join the pending ones *)
  1,4: destruct Hi as (Ht & Hag & Hp); rewrite vgw_pair; split; [cbn [r_total fst]; rewrite Ht; reflexivity|]; split; [exact Hag|];
    cbn [r_pending r_tape snd]; rewrite (rhs_val_app O Rth), Hp, (elem_ops e _ _ Hf Hag); cbn [wval]; fold O; ring.
  all: pose proof Hi as (Ht & Hp & Hsw); pose proof (agree_of _ _ Hsw) as Hag.
  - (* total *= x: the element entered with multiplier total, then total = total * x as an expression statement *)
    rewrite vgw_pair. apply assign_closed; [exact Hag|cbn; rewrite Ht; reflexivity|].
    unfold total_leaf. cbn [r_pending r_tape tangent is_active sem dleft dright snd].
    rewrite (closed_elem st s e _ Hf Hi), Nat2Z.id, (at_t _ _ Hsw), Ht. cbn [wval]. fold O. ring.
  - (* if (x > total) total = x: the element's statement replaces the total, or nothing is recorded *)
    rewrite (value_at_sem F Hdiv), Ht by apply arrs_ok_top. destruct (cmp_eval F c (sem F e) (fst s)); [|exact Hi].
    rewrite vgw_pair. apply close_closed; [exact Hag|reflexivity|].
    cbn [r_pending r_tape]. rewrite app_nil_r, (closed_elem st s e _ Hf Hi). cbn [wval snd]. fold O. ring.
Qed.

Lemma finish_pending f n st s : f <> FinNone -> inv_pending st s ->
  inv_closed (rfin_step F ofnat t n f st) (rfin_spec F ofnat n f s).
Proof.
  intros Hf (Ht & Hag & Hp).
  assert (inv_closed (close t st (r_total st) []) s) as Hc by (apply close_closed; [exact Hag|exact Ht|rewrite app_nil_r; exact Hp]).
  pose proof Hc as (_ & _ & Hsw).
  destruct f; [contradiction|exact Hc| |]; cbn [rfin_step rfin_spec]; cbv zeta.
  (* total /= n and total = sqrt(total): an expression statement whose one active leaf is the closed total
     (the derivative of the square root also reads the total's value, Ht) *)
  all: apply assign_closed; [exact (agree_of _ _ Hsw)|cbn; rewrite Ht; reflexivity|].
  all: unfold total_leaf; cbn [close r_pending r_total tangent is_active sem snd dleft dright].
  all: rewrite (rhs_val_nil O), Nat2Z.id, (at_t _ _ Hsw), ?Ht; fold O; ring.
Qed.

Lemma acc_inv_init a x : acc_inv a (mkR x [mkStmt t []] []) (x, o0 O).
Proof.
  unfold acc_inv. destruct (pends a); (split; [reflexivity|]; split).
  - intros i. apply upd_other.
  - apply (rhs_val_nil O).
  - reflexivity.
  - reflexivity.
Qed.

Lemma loop_inv a es : Forall fresh es -> forall st s, acc_inv a st s ->
  acc_inv a (fold_left (racc_step F t a) es st) (fold_left (racc_spec F a) (xs_of es) s).
Proof.
  induction 1 as [|e es Hf _ IH]; intros st s Hi; [exact Hi|].
  cbn [fold_left xs_of map]. apply IH. apply acc_inv_step; assumption.
Qed.

Lemma wf_pends p : policy_wf p = true ->
  if pends (rp_acc p) then rp_fin_needed p = true /\ rp_fin p <> FinNone else rp_fin_needed p = false \/ rp_fin p = FinNone.
Proof.
  unfold policy_wf. destruct (rp_acc p); cbn [pends]; intros H.
  1,4: apply andb_true_iff in H; destruct H as [-> H]; split; [reflexivity|]; intros E; rewrite E in H; discriminate H.
  all: destruct (rp_fin_needed p); [right; destruct (rp_fin p); [reflexivity|discriminate H..]|left; reflexivity].
Qed.

Theorem reduce_run_correct p es : policy_wf p = true -> Forall fresh es ->
  inv_closed (reduce_run F minf pinf ofnat t p es) (reduce_spec F minf pinf ofnat p (xs_of es)).
Proof.
  intros Hwf Hfr. apply wf_pends in Hwf. unfold reduce_run, reduce_spec.
  rewrite (map_length _ es : length (xs_of es) = length es).
  pose proof (loop_inv (rp_acc p) es Hfr _ _ (acc_inv_init _ (first_of F minf pinf (rp_first p)))) as Hc.
  unfold acc_inv in Hc. destruct (pends (rp_acc p)).
  - destruct Hwf as [-> Hf]. apply finish_pending; assumption.
  - destruct Hwf as [-> | ->]; [exact Hc|]. destruct (rp_fin_needed p); exact Hc.
Qed.
End Run.
End ReduceProofs.

Section Dim.
Context {T : Type} (F : FOps T).
Variables (minf pinf : T) (ofnat : nat -> T).
Let O := fbase F.
Hypothesis Rth : ring_theory (o0 O) (o1 O) (oadd O) (omul O) (osub O) (oneg O) (@eq T).
Hypothesis Hdiv : forall x y, odiv O x y = omul O x (odiv O (o1 O) y).
Hypothesis Hlit1 : flit F 1 1 = o1 O.
Add Ring TringD : Rth.

Lemma fresh_in t es (e : expr (T:=T)) z : Forall (fresh t) es -> In e es -> In z (gis e) -> Z.to_nat z <> t.
Proof. intros H He. revert z. apply Forall_forall. exact (proj1 (Forall_forall _ _) H e He). Qed.

Definition dim_result (tt : nat) (p : rpolicy) (u0 : nat -> T) (strips : list (nat * list (expr (T:=T)))) : nat -> T :=
  fold_left (fun g rs => let s := snd (reduce_spec F minf pinf ofnat p (xs_of F u0 (snd rs))) in upd (upd g tt s) (fst rs) s) strips u0.

Lemma strip_sweep tt p u0 (g : nat -> T) r es : policy_wf p = true -> Forall (fresh tt) es ->
  (forall e z, In e es -> In z (gis e) -> g (Z.to_nat z) = u0 (Z.to_nat z)) ->
  let s := snd (reduce_spec F minf pinf ofnat p (xs_of F u0 es)) in
  forall i, fwd_sweep O (r_tape (reduce_run F minf pinf ofnat tt p es) ++ [mkStmt r [(o1 O, tt)]]) g i = upd (upd g tt s) r s i.
Proof.
  intros Hwf Hfr Hg s i.
  (* run the strip with g as the seed vector: its elements read g only where it is u0 *)
  pose proof (reduce_run_correct F minf pinf ofnat Rth Hdiv Hlit1 tt g p es Hwf Hfr) as (_ & _ & Hsw).
  replace (xs_of F g es) with (xs_of F u0 es) in Hsw.
  2:{ unfold xs_of. apply map_ext_in. intros e He. f_equal. apply (tangent_ext F), Forall_forall. intros z Hz. symmetry. apply (Hg e z He Hz). }
  rewrite fwd_sweep_snoc. apply upd_ext; [exact Hsw|].
  rewrite (rhs_val_cons O Rth), (rhs_val_nil O), Hsw, upd_same. cbn [fst snd]. fold O s. ring.
Qed.

Theorem reduce_dim_correct tt p u0 strips : policy_wf p = true ->
  (forall rs, In rs strips -> Forall (fresh tt) (snd rs)) ->
  (forall rs rs', In rs strips -> In rs' strips -> Forall (fresh (fst rs)) (snd rs')) ->
  (forall i, fwd_sweep O (reduce_dim_tape F minf pinf ofnat tt p strips) u0 i = dim_result tt p u0 strips i) /\
  reduce_dim_values F minf pinf ofnat tt p strips = map (fun rs => (fst rs, fst (reduce_spec F minf pinf ofnat p (xs_of F u0 (snd rs))))) strips.
Proof.
  intros Hwf Htt Hres. split.
  - unfold dim_result. set (f := fun g rs => _).
    (* generalise the start vector: any g that agrees with u0 on what the elements of all strips read *)
    assert (G : forall l, incl l strips -> forall g : nat -> T,
              (forall rs e z, In rs strips -> In e (snd rs) -> In z (gis e) -> g (Z.to_nat z) = u0 (Z.to_nat z)) ->
              forall i, fwd_sweep O (reduce_dim_tape F minf pinf ofnat tt p l) g i = fold_left f l g i).
    { induction l as [|rs l IH]; intros Hin g Hg i; [reflexivity|]. apply incl_cons_inv in Hin. destruct Hin as [Hrs Hin].
      unfold reduce_dim_tape. cbn [map concat fold_left]. rewrite fwd_sweep_app.
      etransitivity; [apply (fwd_ext O); apply (strip_sweep tt p u0 g); [exact Hwf|exact (Htt rs Hrs)|exact (fun e z => Hg rs e z Hrs)]|].
      apply (IH Hin). intros rs' e z Hin' He Hz. unfold f.
      rewrite !upd_other; [apply (Hg rs' e z Hin' He Hz)|exact (fresh_in _ _ e z (Htt rs' Hin') He Hz)|exact (fresh_in _ _ e z (Hres rs rs' Hrs Hin') He Hz)]. }
    intros i. apply G; [apply incl_refl|]. intros; reflexivity.
  - unfold reduce_dim_values. apply map_ext_in. intros rs Hrs. f_equal.
    pose proof (reduce_run_correct F minf pinf ofnat Rth Hdiv Hlit1 tt u0 p (snd rs) Hwf (Htt rs Hrs)) as (Hv & _ & _). exact Hv.
Qed.
End Dim.

(* the reservation before the element loop is check_space((E::n_active + Func::extra_element_cost) * n), reduce.h:757 *)
Section Count.
Context {T : Type} (F : FOps T).
Variables (minf pinf : T).
Lemma vgw_length (e : expr (T:=T)) mk : (Z.of_nat (length (snd (vgw F e mk))) <= n_active e)%Z.
Proof.
  unfold vgw. destruct (value_store F (arrays_of e) e 0 0 (fun _ => o0 (fbase F))) as [v scr]. apply pushes_le_n_active.
Qed.
Lemma conv_length (ops : list (T * Z)) : length (conv_ops ops) = length ops.
Proof. apply map_length. Qed.
Lemma op_count_close t (st : rstate (T:=T)) v extra : op_count (close t st v extra) = (op_count st + length extra)%nat.
Proof. unfold op_count, close. cbn [r_tape r_pending]. rewrite map_app, concat_app. cbn [map concat rhs]. rewrite ?app_nil_r, !app_length. cbn [length]. lia. Qed.
Lemma op_count_push (st : rstate (T:=T)) tot ops :
  op_count (mkR tot (r_tape st) (r_pending st ++ conv_ops ops)) = (op_count st + length ops)%nat.
Proof. unfold op_count. cbn [r_tape r_pending]. rewrite app_length, conv_length. lia. Qed.
Lemma op_count_assign t (st : rstate (T:=T)) e : (Z.of_nat (op_count (assign_expr F t st e)) <= Z.of_nat (op_count st) + n_active e)%Z.
Proof.
  unfold assign_expr. pose proof (vgw_length e (fun _ => None)) as H. change (vgw F e (fun _ => None)) with (value_and_gradient F e) in H.
  destruct (value_and_gradient F e) as [v ops]. cbn [snd] in H. rewrite op_count_close, conv_length. lia.
Qed.
Lemma step_count t a (st : rstate (T:=T)) e :
  (Z.of_nat (op_count (racc_step F t a st e)) <= Z.of_nat (op_count st) + n_active e + acc_extra a)%Z.
Proof.
  destruct a as [| |c|n d]; cbn [racc_step acc_extra]; [| |destruct (cmp_eval F c _ _); [|pose proof (n_active_nonneg e); lia]|].
  all: match goal with |- context [vgw F _ ?mk] => pose proof (vgw_length e mk) as H; destruct (vgw F e mk) as [v ops]; cbn [snd] in H end.
  - rewrite op_count_push. lia.
  - (* total *= x: one more operation, for the active leaf total *)
    etransitivity; [apply op_count_assign|]. rewrite op_count_push. cbn [n_active total_leaf]. lia.
  - rewrite op_count_close, op_count_push. cbn [length]. lia.
  - rewrite op_count_push. lia.
Qed.
Theorem loop_within_reservation t p es na : (acc_extra (rp_acc p) <= rp_extra p)%Z -> Forall (fun e : expr (T:=T) => (n_active e <= na)%Z) es ->
  (Z.of_nat (ops_in_loop F minf pinf t p es) <= reduce_reservation na (rp_extra p) (Z.of_nat (length es)))%Z.
Proof.
  intros Hx Hna. unfold ops_in_loop, reduce_reservation.
  set (st0 := mkR (first_of F minf pinf (rp_first p)) [mkStmt t []] []).
  assert (G : forall st, (Z.of_nat (op_count (fold_left (racc_step F t (rp_acc p)) es st)) <= Z.of_nat (op_count st) + (na + rp_extra p) * Z.of_nat (length es))%Z).
  { induction Hna as [|e es He _ IH]; intros st; [cbn [fold_left length]; lia|].
    cbn [fold_left]. etransitivity; [apply IH|]. pose proof (step_count t (rp_acc p) st e). cbn [length]. nia. }
  specialize (G st0). change (op_count st0) with 0%nat in G. lia.
Qed.
End Count.

Lemma generated_policies_wf : forall k, policy_wf (reduce_policy k) = true.
Proof. destruct k; reflexivity. Qed.
Lemma generated_extra_cost : forall k, (acc_extra (rp_acc (reduce_policy k)) <= rp_extra (reduce_policy k))%Z.
Proof. destruct k; vm_compute; discriminate. Qed.
