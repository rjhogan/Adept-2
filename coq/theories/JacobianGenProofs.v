(* the stores and seeds translated from adept/jacobian.cpp are those of the hand model Jacobian.v *)
From Coq Require Import ZArith List Lia.
From Adept Require Import JacobianDefs.
From AdeptGen Require Import Gen_Jacobian.

Lemma generated_stores_and_seeds :
  Forall site_ok jacobian_sites /\ Forall seed_ok jacobian_seeds /\ sites_complete jacobian_sites jacobian_seeds = true.
Proof.
  split; [|split].
  - (* per store: the tests on the tested offset and the loop bounds are closed; once [jeval] has run, the address and the
       element copied are the model's formulas up to the trip nat -> Z -> nat of a list index (Nat2Z.id).  On the present
       source they coincide as written ([reflexivity] would do); [lia] also accepts a reordered sum or product *)
    repeat (constructor; [unfold site_ok; cbn [s_routine s_unit s_cond s_outer s_inner s_addr s_src is_fwd fst snd];
                          do 4 (split; [reflexivity|]); intros en; cbn [jeval model_addr]; rewrite Nat2Z.id; split; lia|]).
    constructor.
  - repeat (constructor; [unfold seed_ok; cbn [d_routine d_inner d_idx is_fwd fst snd];
                          split; [reflexivity|]; intros en; cbn [jeval]; rewrite <- Nat2Z.inj_add, Nat2Z.id; lia|]).
    constructor.
  - vm_compute. reflexivity.
Qed.

(* [model_addr], with which [site_ok] compares the translated address, is the address of every write of a forward /
   reverse block of Jacobian.v *)
From Adept Require Import Jacobian.
Lemma model_address_is_the_models (T : Type) (l : list nat) (g : nat -> nat -> T) i0 bs doff ioff w :
  (In w (fwd_block_writes l g i0 bs doff ioff) ->
     exists idep i, (i < bs)%nat /\ w_dep w = idep /\ w_indep w = (i0 + i)%nat /\ w_addr w = model_addr true (ioff =? 1)%Z idep i0 i doff ioff) /\
  (In w (rev_block_writes l g i0 bs doff ioff) ->
     exists iindep i, (i < bs)%nat /\ w_indep w = iindep /\ w_dep w = (i0 + i)%nat /\ w_addr w = model_addr false (doff =? 1)%Z iindep i0 i doff ioff).
Proof.
  split; intros H; apply in_flat_map in H; destruct H as (o & _ & H); apply in_map_iff in H; destruct H as (i & <- & Hi);
    apply in_seq in Hi; exists o, i; (split; [lia|]); repeat split.
Qed.
