(* Invariant of the gap-list allocator model (GapList.v) and its consequences (C08).
   Key idea: a single pointwise *partition* equation.  For every index i >= 0 exactly one of
   the following holds: i lies in exactly one gap; i lies in exactly one live block; i is at
   or above i_gradient.  Written as  mult i gaps + cov i L + above = 1  it is preserved by
   every branch of the allocator by additive bookkeeping, and it implies that live blocks are
   pairwise disjoint, lie below i_gradient <= max_gradient, and that a block handed out by
   register was not live.
   The allocator never sees the live blocks, so its two operations are first described on their
   own: [free s i = mult i (gaps s) + above (ig s) i] counts how often the allocator holds i to be
   free; registering takes the indicator of the block handed out away from it, unregistering adds
   the indicator of the block given back ([registerN_spec], [unregisterN_spec]).  Every branch does
   so by cutting an interval in two or gluing two together: [in01_split], [above_split]. *)
From Coq Require Import ZArith List Bool Lia.
From Adept Require Import ListProofs GapList.
Import ListNotations.
Local Open Scope Z_scope.

(* GapList.v alone uses [remove_nth] and [insert_nth], so their list facts are here; those of [set_nth] are ListProofs' *)
Lemma nth_error_set_nth_same {A} k (x:A) l : (k < length l)%nat -> nth_error (set_nth k x l) k = Some x.
Proof. apply ListProofs.nth_error_set_nth_same. Qed.
Lemma length_remove_nth {A} k (l:list A) : (k < length l)%nat -> length (remove_nth k l) = pred (length l).
Proof. revert k; induction l as [|h t IH]; intros [|k] H; simpl in *; try lia. rewrite IH by lia. destruct t; simpl in *; lia. Qed.
Lemma length_insert_nth {A} k (x:A) l : length (insert_nth k x l) = S (length l).
Proof. revert l; induction k as [|k IH]; intros [|h t]; simpl; auto. Qed.
Lemma nth_error_Some_lt {A} (l:list A) k x : nth_error l k = Some x -> (k < length l)%nat.
Proof. intros H. apply nth_error_Some. congruence. Qed.

Lemma Forall_remove_nth {A} (P:A->Prop) k l : Forall P l -> Forall P (remove_nth k l).
Proof. intros H; revert k; induction H as [|h t Hh Ht IH]; intros [|k]; simpl; auto. Qed.
Lemma Forall_insert_nth {A} (P:A->Prop) k x l : Forall P l -> P x -> Forall P (insert_nth k x l).
Proof. intros H Hx; revert l H; induction k as [|k IH]; intros l H; destruct H; simpl; auto. Qed.
Lemma insert_nth_at_end {A} (x:A) l : insert_nth (length l) x l = l ++ [x].
Proof. induction l as [|h t IH]; simpl; [|rewrite IH]; reflexivity. Qed.
Lemma nth_error_remove_nth_other {A} p q (x:A) l : p <> q -> nth_error l q = Some x -> exists q', nth_error (remove_nth p l) q' = Some x.
Proof. revert p q. induction l as [|h t IH]; intros [|p] [|q] Hpq E; try discriminate; try lia.
  - exists q. exact E. - exists 0%nat. exact E.
  - destruct (IH p q ltac:(lia) E) as [q' H]. exists (S q'). exact H. Qed.
Lemma nth_error_last {A} (l:list A) x r : rev l = x :: r -> nth_error l (pred (length l)) = Some x.
Proof. intros H. rewrite <- (rev_involutive l), H. simpl. rewrite last_length. simpl.
  rewrite nth_error_app2, Nat.sub_diag by lia. reflexivity. Qed.
Lemma removelast_remove_nth {A} (l:list A) : removelast l = remove_nth (pred (length l)) l.
Proof. induction l as [|h t IH]; auto. destruct t as [|h' t']; simpl; auto. f_equal. exact IH. Qed.

Definition in01 (i lo hi : Z) : Z := if (lo <=? i) && (i <=? hi) then 1 else 0.
Fixpoint mult (i:Z) (l:list gap) : Z :=
  match l with [] => 0 | g :: t => in01 i (fst g) (snd g) + mult i t end.
Fixpoint cov (i:Z) (L:blocks) : Z :=
  match L with [] => 0 | b :: t => in01 i (fst b) (fst b + snd b - 1) + cov i t end.
Definition above (top i : Z) : Z := if top <=? i then 1 else 0.
Fixpoint total (L:blocks) : Z := match L with [] => 0 | b :: t => snd b + total t end.

Lemma in01_range i lo hi : 0 <= in01 i lo hi <= 1.
Proof. unfold in01. destruct (_ && _); lia. Qed.
Lemma above_range top i : 0 <= above top i <= 1.
Proof. unfold above. destruct (_ <=? _); lia. Qed.
Lemma in01_in i lo hi : lo <= i <= hi -> in01 i lo hi = 1.
Proof. unfold in01. destruct (Z.leb_spec lo i), (Z.leb_spec i hi); simpl; lia. Qed.
Lemma above_in top i : top <= i -> above top i = 1.
Proof. unfold above. destruct (Z.leb_spec top i); lia. Qed.
(* an interval's indicator is the difference of two steps, so cutting an interval in two, or gluing two together, telescopes *)
Lemma in01_above i lo hi : lo <= hi + 1 -> in01 i lo hi = above lo i - above (hi + 1) i.
Proof. unfold in01, above. destruct (Z.leb_spec lo i), (Z.leb_spec i hi), (Z.leb_spec (hi + 1) i); simpl; lia. Qed.
(* [lo,hi] is [lo1,hi1] followed by [lo2,hi2]; the equations are left to the caller so that the
   intervals can be written as they occur in the goal *)
Lemma in01_split i lo hi lo1 hi1 lo2 hi2 : lo1 = lo -> hi2 = hi -> lo2 = hi1 + 1 -> lo <= lo2 <= hi + 1 ->
  in01 i lo hi = in01 i lo1 hi1 + in01 i lo2 hi2.
Proof. intros -> -> -> H. rewrite !in01_above by lia. lia. Qed.
Lemma above_split i lo lo1 hi1 hi : lo1 = lo -> hi = hi1 + 1 -> lo <= hi -> above lo i = in01 i lo1 hi1 + above hi i.
Proof. intros -> -> H. rewrite in01_above by lia. lia. Qed.

Lemma mult_nonneg i l : 0 <= mult i l.
Proof. induction l as [|g t IH]; simpl; [lia|]. pose proof (in01_range i (fst g) (snd g)). lia. Qed.
Lemma cov_nonneg i L : 0 <= cov i L.
Proof. induction L as [|g t IH]; simpl; [lia|]. pose proof (in01_range i (fst g) (fst g + snd g - 1)). lia. Qed.

(* [mult i], [cov i] and [total] each add up a weight over the list: what an edit at one position does to such a sum
   ([sum_set_nth] is in ListProofs) *)
Section Sum.
Context {A} (f : list A -> Z) (w : A -> Z) (Hcons : forall x t, f (x :: t) = w x + f t).
Lemma sum_remove_nth k x l : nth_error l k = Some x -> f (remove_nth k l) = f l - w x.
Proof. revert k; induction l as [|h t IH]; intros [|k] E; simpl; try discriminate; rewrite !Hcons.
  - inversion E. lia. - rewrite (IH _ E). lia. Qed.
Lemma sum_insert_nth k y l : f (insert_nth k y l) = f l + w y.
Proof. revert l; induction k as [|k IH]; intros [|h t]; simpl; rewrite !Hcons; try lia. rewrite IH. lia. Qed.
End Sum.

Lemma mult_remove_nth i k g l : nth_error l k = Some g ->
  mult i (remove_nth k l) = mult i l - in01 i (fst g) (snd g).
Proof. exact (sum_remove_nth (mult i) _ (fun _ _ => eq_refl) k g l). Qed.
Lemma mult_set_nth i k g g' l : nth_error l k = Some g ->
  mult i (set_nth k g' l) = mult i l - in01 i (fst g) (snd g) + in01 i (fst g') (snd g').
Proof. exact (sum_set_nth (mult i) _ (fun _ _ => eq_refl) k g g' l). Qed.
Lemma mult_insert_nth i k g l : mult i (insert_nth k g l) = mult i l + in01 i (fst g) (snd g).
Proof. exact (sum_insert_nth (mult i) _ (fun _ _ => eq_refl) k g l). Qed.
Lemma cov_remove_nth i k b L : nth_error L k = Some b ->
  cov i (remove_nth k L) = cov i L - in01 i (fst b) (fst b + snd b - 1).
Proof. exact (sum_remove_nth (cov i) _ (fun _ _ => eq_refl) k b L). Qed.
Lemma total_remove_nth k b L : nth_error L k = Some b -> total (remove_nth k L) = total L - snd b.
Proof. exact (sum_remove_nth total _ (fun _ _ => eq_refl) k b L). Qed.
Lemma mult_ge_nth i k g l : nth_error l k = Some g -> in01 i (fst g) (snd g) <= mult i l.
Proof. intros E. pose proof (mult_remove_nth i k g l E). pose proof (mult_nonneg i (remove_nth k l)). lia. Qed.
Lemma cov_ge_nth i k b L : nth_error L k = Some b -> in01 i (fst b) (fst b + snd b - 1) <= cov i L.
Proof. intros E. pose proof (cov_remove_nth i k b L E). pose proof (cov_nonneg i (remove_nth k L)). lia. Qed.

(* the scan has passed over p: the index it returns counts from the head of the whole list *)
Lemma find_fit_spec n l : forall p k a b, find_fit n (length p) l = Some (k,(a,b)) ->
  nth_error (p ++ l) k = Some (a,b) /\ n <= b + 1 - a.
Proof. induction l as [|[a0 b0] t IH]; intros p k a b H; simpl in H; [discriminate|].
  destruct (Z.leb_spec n (b0 + 1 - a0)).
  - injection H as <- <- <-. rewrite nth_error_app2, Nat.sub_diag by lia. auto.
  - specialize (IH (p ++ [(a0,b0)])). rewrite app_length, Nat.add_1_r, <- app_assoc in IH. exact (IH _ _ _ H). Qed.
Lemma search_spec idx n l : forall p k stt, search idx n (length p) l = Some (k,stt) ->
  exists a b, nth_error (p ++ l) k = Some (a,b) /\
   match stt with AtBase => idx = a - n | AtTop => idx = b + 1 | NewGap => True | NotFound => False end.
Proof. induction l as [|[a0 b0] t IH]; intros p k stt H; simpl in H; [discriminate|].
  destruct (Z.leb_spec idx (b0 + 1)).
  - injection H as <- <-. exists a0, b0. rewrite nth_error_app2, Nat.sub_diag by lia. split; [reflexivity|].
    destruct (Z.eqb_spec idx (a0 - n)); [assumption|]. destruct (Z.eqb_spec idx (b0+1)); auto.
  - specialize (IH (p ++ [(a0,b0)])). rewrite app_length, Nat.add_1_r, <- app_assoc in IH. exact (IH _ _ H). Qed.
Lemma search_None_len idx n l k0 : search idx n k0 l = None -> True. Proof. auto. Qed.

Definition gap_ok (g:gap) : Prop := 0 <= fst g <= snd g.
Definition block_ok (b:Z*Z) : Prop := 0 <= fst b /\ 1 <= snd b.
Definition cur_ok (c:option nat) (l:list gap) : Prop :=
  match c with Some k => (k < length l)%nat | None => True end.

Lemma gap_at {l k a b} : Forall gap_ok l -> nth_error l k = Some (a,b) -> 0 <= a <= b /\ (k < length l)%nat.
Proof. intros Hg E. split; [exact (Forall_nth_error _ _ _ _ Hg E)|exact (nth_error_Some_lt _ _ _ E)]. Qed.

Record Inv (s:st) (L:blocks) : Prop := mkInv {
  inv_gaps : Forall gap_ok (gaps s);
  inv_part : forall i, 0 <= i -> mult i (gaps s) + cov i L + above (ig s) i = 1;
  inv_nreg : nreg s = total L;
  inv_mg   : 0 <= ig s <= mg s;
  inv_blocks : Forall block_ok L;
  inv_cur  : cur_ok (cur s) (gaps s)
}.

Definition wf (s:st) : Prop := Forall gap_ok (gaps s) /\ 0 <= ig s <= mg s /\ cur_ok (cur s) (gaps s).
Definition free (s:st) (i:Z) : Z := mult i (gaps s) + above (ig s) i.

Lemma free_nonneg s i : 0 <= free s i.
Proof. unfold free. pose proof (mult_nonneg i (gaps s)). pose proof (above_range (ig s) i). lia. Qed.
Lemma Inv_iff s L : Inv s L <->
  wf s /\ (forall i, 0 <= i -> free s i + cov i L = 1) /\ nreg s = total L /\ Forall block_ok L.
Proof. unfold free. split.
  - intros [Hg Hp Hn Hm Hb Hc]. repeat split; try assumption; try lia. intros i Hi. specialize (Hp i Hi). lia.
  - intros ((Hg & Hm & Hc) & Hp & Hn & Hb). constructor; try assumption. intros i Hi. specialize (Hp i Hi). lia. Qed.

Lemma Inv_init : Inv init [].
Proof. constructor; simpl; auto; try lia. intros i Hi. rewrite above_in by exact Hi. reflexivity. Qed.

Lemma cur_ok_erase k c l : (k < length l)%nat -> cur_ok c l -> cur_ok (cur_after_erase k c) (remove_nth k l).
Proof. intros Hk. destruct c as [j|]; simpl; auto. intros Hj.
  destruct (Nat.eqb_spec j k); simpl; auto.
  destruct (Nat.ltb_spec k j); simpl; rewrite length_remove_nth by assumption; lia. Qed.

Lemma registerN_spec s n s' r : wf s -> 1 <= n -> registerN s n = (s', r) ->
  wf s' /\ 0 <= r /\ nreg s' = nreg s + n /\ forall i, free s' i = free s i - in01 i r (r + n - 1).
Proof.
  intros (Hg & Hm & Hc) H1 E. unfold registerN in E.
  destruct (find_fit n 0%nat (gaps s)) as [[k [a b]]|] eqn:EF.
  - apply (find_fit_spec n _ []) in EF. simpl in EF. destruct EF as [Hnth Hlen].
    pose proof (gap_at Hg Hnth) as [Hab Hk].
    destruct (Z.ltb_spec n (b + 1 - a)); injection E as <- <-; unfold wf, free; simpl.
    + repeat split; try lia.
      * apply Forall_set_nth; [assumption|unfold gap_ok; simpl; lia].
      * unfold cur_ok. rewrite length_set_nth. exact Hc.
      * intros i. rewrite (mult_set_nth i _ _ _ _ Hnth). simpl.
        rewrite (in01_split i a b a (a + n - 1) (a + n) b) by lia. lia.
    + repeat split; try lia.
      * apply Forall_remove_nth; assumption.
      * apply cur_ok_erase; assumption.
      * intros i. rewrite (mult_remove_nth i _ _ _ Hnth). simpl. replace (a + n - 1) with b by lia. lia.
  - injection E as <- <-. unfold wf, free; simpl. repeat split; try assumption; try lia.
    + unfold bump_max. destruct (Z.ltb_spec (mg s) (ig s + n)); lia.
    + intros i. rewrite (above_split i (ig s) (ig s) (ig s + n - 1) (ig s + n)) by lia. lia.
Qed.

(* register_gradient() is do_register_gradients(1): with non-empty gaps the first gap always fits *)
Lemma register1_registerN s : Forall gap_ok (gaps s) -> register1 s = registerN s 1.
Proof.
  intros Hg. unfold register1, registerN. destruct (gaps s) as [|[a b] rest]; [reflexivity|].
  apply Forall_inv in Hg. unfold gap_ok in Hg; simpl in Hg. cbn [find_fit].
  destruct (Z.leb_spec 1 (b + 1 - a)); [|lia].
  destruct (Z.ltb_spec b (a + 1)), (Z.ltb_spec 1 (b + 1 - a)); try lia; reflexivity.
Qed.

Lemma registerN_inv s L n s' r : Inv s L -> 1 <= n -> registerN s n = (s', r) ->
  Inv s' ((r,n) :: L) /\ forall i, r <= i < r + n -> cov i L = 0.
Proof.
  intros HI Hn E. apply Inv_iff in HI. destruct HI as (Hw & Hp & Hnr & Hb).
  pose proof (registerN_spec _ _ _ _ Hw Hn E) as (Hw' & Hr & Hnr' & Hf). split.
  - apply Inv_iff. refine (conj Hw' (conj _ (conj _ _))); simpl.
    + intros i Hi. specialize (Hp i Hi). rewrite Hf. lia.
    + lia.
    + constructor; [unfold block_ok; simpl; lia|exact Hb].
  - (* the indices of the block were free, so no live block covers them *)
    intros i Hi. specialize (Hp i ltac:(lia)). specialize (Hf i). rewrite in01_in in Hf by lia.
    pose proof (free_nonneg s' i). pose proof (cov_nonneg i L). lia.
Qed.

(* what the "find the place" phase of unregister (cursor shortcut or linear search) establishes and the merge keeps:
   g is the gap list l with the block [idx, idx+n) given back, k a position in g *)
Definition placed (l:list gap) (idx n:Z) (k:nat) (g:list gap) : Prop :=
  Forall gap_ok g /\ (k < length g)%nat /\
  forall i, mult i g = mult i l + in01 i idx (idx + n - 1).

Lemma set_placed {l idx n k g g'} : Forall gap_ok l -> nth_error l k = Some g -> gap_ok g' ->
  (forall i, in01 i (fst g') (snd g') = in01 i (fst g) (snd g) + in01 i idx (idx + n - 1)) -> placed l idx n k (set_nth k g' l).
Proof.
  intros Hg E Hg' Hi. split; [|split].
  - apply Forall_set_nth; assumption.
  - rewrite length_set_nth. exact (nth_error_Some_lt _ _ _ E).
  - intros i. rewrite (mult_set_nth i _ _ _ _ E), Hi. lia.
Qed.
Lemma extend_placed {l idx n k a b} : Forall gap_ok l -> 0 <= idx -> 1 <= n -> nth_error l k = Some (a,b) ->
  (idx = a - n -> placed l idx n k (set_nth k (a-n,b) l)) /\
  (idx = b + 1 -> placed l idx n k (set_nth k (a,b+n) l)).
Proof.
  intros Hg H0 H1 E. pose proof (gap_at Hg E) as [Hab _].
  split; intros Hidx; (apply (set_placed Hg E); [unfold gap_ok; simpl; lia|intros i; simpl]).
  - rewrite (in01_split i (a-n) b idx (idx + n - 1) a b) by lia. lia.
  - rewrite (in01_split i a (b+n) a b idx (idx + n - 1)) by lia. lia.
Qed.
Lemma insert_placed l idx n k : Forall gap_ok l -> 0 <= idx -> 1 <= n -> (k <= length l)%nat ->
  placed l idx n k (insert_nth k (idx, idx+n-1) l).
Proof.
  intros Hg H0 H1 Hk. split; [|split].
  - apply Forall_insert_nth; [assumption|unfold gap_ok; simpl; lia].
  - rewrite length_insert_nth. lia.
  - intros i. rewrite mult_insert_nth. reflexivity.
Qed.

Lemma place_placed s idx n : Forall gap_ok (gaps s) -> 0 <= idx -> 1 <= n ->
  let '(k, _, g) := place s idx n in placed (gaps s) idx n k g.
Proof.
  intros Hg H0 H1. unfold place.
  destruct (match cur s with Some k0 => _ | None => None end) as [[[k0 stt] g]|] eqn:EC.
  - destruct (cur s) as [kc|]; [|discriminate].
    destruct (nth_error (gaps s) kc) as [[a b]|] eqn:EN; [|discriminate].
    pose proof (extend_placed Hg H0 H1 EN) as [Hbase Htop].
    destruct (Z.eqb_spec idx (a - n)); [injection EC as <- <- <-; auto|].
    destruct (Z.eqb_spec idx (b+1)); [|discriminate]. injection EC as <- <- <-; auto.
  - clear EC. destruct (search idx n 0%nat (gaps s)) as [[k0 stt]|] eqn:ES.
    + apply (search_spec idx n _ []) in ES. simpl in ES. destruct ES as (a & b & Hnth & Hst).
      pose proof (extend_placed Hg H0 H1 Hnth) as [Hbase Htop].
      destruct stt; rewrite ?Hnth; [| | |contradiction].
      * apply Hbase; assumption.
      * apply Htop; assumption.
      * apply nth_error_Some_lt in Hnth. apply insert_placed; try assumption. lia.
    + (* past the last gap: appending is inserting at the end *)
      rewrite <- insert_nth_at_end. apply insert_placed; try assumption. lia.
Qed.

(* the two merges are one list operation: neighbours j, j+1 become one element, whichever of the two is overwritten *)
Lemma fuse_either {A} j (x:A) g : (S j < length g)%nat -> remove_nth j (set_nth (S j) x g) = remove_nth (S j) (set_nth j x g).
Proof. revert j; induction g as [|h t IH]; intros [|j] H; simpl in *; try lia.
  - destruct t; simpl in *; [lia|reflexivity]. - rewrite <- IH by lia. reflexivity. Qed.
Lemma merge_cases k stt g : merge k stt g = (g, k) \/
  exists j a b d, nth_error g j = Some (a,b) /\ nth_error g (S j) = Some (b+1,d) /\
                  merge k stt g = (remove_nth (S j) (set_nth j (a,d) g), j).
Proof.
  unfold merge. destruct stt; auto.
  - destruct k as [|k0]; auto. destruct (nth_error g k0) as [[pa pb]|] eqn:E1; auto.
    destruct (nth_error g (S k0)) as [[a b]|] eqn:E2; auto. destruct (Z.eqb_spec pb (a-1)); auto.
    right. exists k0, pa, pb, b. rewrite fuse_either by exact (nth_error_Some_lt _ _ _ E2). replace (pb + 1) with a by lia. auto.
  - destruct (nth_error g k) as [[a b]|] eqn:E1; auto. destruct (nth_error g (S k)) as [[na nb]|] eqn:E2; auto.
    destruct (Z.eqb_spec na (b+1)) as [->|]; auto. right. exists k, a, b, nb. auto.
Qed.
Lemma merge_placed l idx n k stt g : placed l idx n k g -> let (g', k') := merge k stt g in placed l idx n k' g'.
Proof.
  intros (Hg & Hk & Hm). destruct (merge_cases k stt g) as [->|(j & a & b & d & E1 & E2 & ->)]; [repeat split; assumption|].
  destruct (gap_at Hg E1) as [H1 _], (gap_at Hg E2) as [H2 Hlen]. split; [|split].
  - apply Forall_remove_nth. apply Forall_set_nth; [assumption|]. unfold gap_ok; simpl; lia.
  - rewrite length_remove_nth; rewrite length_set_nth; lia.
  - intros i. rewrite <- Hm, (mult_remove_nth i _ (b+1,d)), (mult_set_nth i _ _ _ _ E1) by (rewrite nth_error_set_nth_other by lia; exact E2).
    simpl. rewrite (in01_split i a d a b (b+1) d) by lia. lia.
Qed.

Lemma unregisterN_spec s idx n : wf s -> 0 <= idx -> 1 <= n ->
  wf (unregisterN s idx n) /\ nreg (unregisterN s idx n) = nreg s - n /\
  forall i, free (unregisterN s idx n) i = free s i + in01 i idx (idx + n - 1).
Proof.
  intros (Hg & Hm & Hc) H0 H1. unfold unregisterN. destruct (Z.eqb_spec (idx + n) (ig s)) as [Heq|Hne].
  - assert (let s' := mk (ig s - n) (mg s) (nreg s - n) (gaps s) (cur s) in
            wf s' /\ nreg s' = nreg s - n /\ forall i, free s' i = free s i + in01 i idx (idx + n - 1)) as Hpop.
    { unfold wf, free; simpl. repeat split; try assumption; try lia.
      intros i. rewrite (above_split i (ig s - n) idx (idx + n - 1) (ig s)) by lia. lia. }
    destruct (rev (gaps s)) as [|[a b] r] eqn:ER; [exact Hpop|].
    destruct (Z.eqb_spec (ig s - n) (b+1)) as [Hadj|_]; [clear Hpop|exact Hpop].
    pose proof (nth_error_last _ _ _ ER) as Hlast.
    pose proof (gap_at Hg Hlast) as [Hab Hlen].
    unfold wf, free; simpl. rewrite removelast_remove_nth. repeat split; try lia.
    + apply Forall_remove_nth; assumption.
    + apply cur_ok_erase; assumption.
    + intros i. rewrite (mult_remove_nth i _ _ _ Hlast). simpl.
      rewrite (above_split i a a (idx + n - 1) (ig s)), (in01_split i a (idx + n - 1) a b idx (idx + n - 1)) by lia. lia.
  - pose proof (place_placed s idx n Hg H0 H1) as HP. destruct (place s idx n) as [[k0 stt] g]. apply (merge_placed _ _ _ _ stt) in HP.
    destruct (merge k0 stt g) as [g' k']. destruct HP as (Hg' & Hk' & Hmult).
    unfold wf, free; simpl. repeat split; try assumption; try lia. intros i. rewrite Hmult. lia.
Qed.

Lemma unregisterN_inv s L k idx n : Inv s L -> nth_error L k = Some (idx,n) ->
  Inv (unregisterN s idx n) (remove_nth k L).
Proof.
  intros HI E. apply Inv_iff in HI. destruct HI as (Hw & Hp & Hnr & Hb).
  pose proof (Forall_nth_error _ _ _ _ Hb E) as [H0 H1].
  pose proof (unregisterN_spec s idx n Hw H0 H1) as (Hw' & Hnr' & Hf).
  apply Inv_iff. refine (conj Hw' (conj _ (conj _ _))).
  - intros i Hi. specialize (Hp i Hi). rewrite Hf, (cov_remove_nth i _ _ _ E). simpl. lia.
  - rewrite (total_remove_nth _ _ _ E). simpl. lia.
  - apply Forall_remove_nth; assumption.
Qed.

Lemma new_recording_inv s L : Inv s L -> Inv (new_recording s) L.
Proof. intros [Hg Hp Hn Hm Hb Hc]. constructor; simpl; try assumption. lia. Qed.

Lemma step_inv sL o : Inv (fst sL) (snd sL) -> Inv (fst (step sL o)) (snd (step sL o)).
Proof.
  destruct sL as [s L]. intros HI. destruct o as [|n|k|]; simpl.
  - rewrite (register1_registerN s (inv_gaps _ _ HI)). destruct (registerN s 1) as [s' r] eqn:E.
    eapply registerN_inv; eauto. lia.
  - destruct (Z.leb_spec 1 n); [|exact HI]. destruct (registerN s n) as [s' r] eqn:E.
    eapply registerN_inv; eauto.
  - destruct (nth_error L k) as [[idx n]|] eqn:E; [|exact HI]. eapply unregisterN_inv; eauto.
  - apply new_recording_inv; assumption.
Qed.

Theorem run_inv ops : Inv (fst (run ops)) (snd (run ops)).
Proof. exact (fold_left_inv (fun sL => Inv (fst sL) (snd sL)) step step_inv ops (init, []) Inv_init). Qed.

Definition in_block (i:Z) (b:Z*Z) : Prop := fst b <= i < fst b + snd b.

Lemma live_index {s L p bp i} : Inv s L -> nth_error L p = Some bp -> in_block i bp ->
  0 <= i /\ cov i L = 1 /\ mult i (gaps s) = 0 /\ above (ig s) i = 0.
Proof.
  intros HI Ep Hp. pose proof (Forall_nth_error _ _ _ _ (inv_blocks _ _ HI) Ep) as [Hb _].
  pose proof (cov_ge_nth i _ _ _ Ep) as Hge. unfold in_block in Hp. rewrite in01_in in Hge by lia.
  pose proof (inv_part _ _ HI i ltac:(lia)). pose proof (mult_nonneg i (gaps s)). pose proof (above_range (ig s) i). lia.
Qed.

Theorem live_distinct s L : Inv s L -> forall p q bp bq i, p <> q ->
  nth_error L p = Some bp -> nth_error L q = Some bq -> in_block i bp -> in_block i bq -> False.
Proof.
  intros HI p q bp bq i Hpq Ep Eq Hp Hq. destruct (live_index HI Ep Hp) as (_ & Hc & _).
  (* without block p nothing covers i, yet block q is still there *)
  destruct (nth_error_remove_nth_other _ _ _ _ Hpq Eq) as [q' Eq']. pose proof (cov_ge_nth i _ _ _ Eq') as Hge.
  unfold in_block in Hp, Hq. rewrite (cov_remove_nth i _ _ _ Ep), !in01_in in Hge by lia. lia.
Qed.

Theorem live_below_max s L : Inv s L -> forall p bp i, nth_error L p = Some bp -> in_block i bp ->
  0 <= i < ig s /\ ig s <= mg s.
Proof.
  intros HI p bp i Ep Hp. destruct (live_index HI Ep Hp) as (H0 & _ & _ & Ha). pose proof (inv_mg _ _ HI).
  destruct (Z_lt_le_dec i (ig s)); [lia|]. rewrite above_in in Ha by assumption. lia.
Qed.

Theorem register_fresh s L n : Inv s L -> 1 <= n -> forall i b p,
  snd (registerN s n) <= i < snd (registerN s n) + n -> nth_error L p = Some b -> ~ in_block i b.
Proof.
  intros HI Hn i b p Hi Ep Hib. destruct (registerN s n) as [s' r] eqn:E. simpl in Hi.
  destruct (registerN_inv _ _ _ _ _ HI Hn E) as (_ & Hfree). specialize (Hfree i Hi).
  destruct (live_index HI Ep Hib) as (_ & Hc & _). lia.
Qed.

Theorem gaps_disjoint_from_live s L : Inv s L -> forall p bp k g i,
  nth_error L p = Some bp -> nth_error (gaps s) k = Some g -> in_block i bp -> ~ (fst g <= i <= snd g).
Proof.
  intros HI p bp k g i Ep Eg Hp Hg. destruct (live_index HI Ep Hp) as (_ & _ & Hm & _).
  pose proof (mult_ge_nth i _ _ _ Eg) as Hge. rewrite in01_in in Hge by assumption. lia.
Qed.
